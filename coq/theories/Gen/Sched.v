(* Property C18 (the logical part): N parser/lexer instances run under any
   interleaving compute what they compute when run one after the other.

   The generated tables are shared and immutable, so they are a Section
   variable, not part of any state.  Each instance owns a state of type S;
   one tick applies the deterministic step function to ONE instance, chosen
   by the schedule.  The content of the theorem is the shape of the system
   (a step reads the tables and touches only its own instance's state); that
   the Go code has that shape is checked separately (no package-level
   variable is written, all writes go through the receiver). *)
From Coq Require Import List Arith Lia.
From Lox Require Import Base.ListFacts.
Import ListNotations.

Section Sched.
Variable T : Type.            (* the tables *)
Variable S : Type.            (* the state of one instance *)
Variable step_t : T -> S -> S.
Variable tables : T.

Definition step : S -> S := step_t tables.

(* one tick for instance i (an index outside the system does nothing) *)
Fixpoint tick (i : nat) (sts : list S) : list S :=
  match sts, i with
  | [], _ => []
  | s :: r, O => step s :: r
  | s :: r, Datatypes.S j => s :: tick j r
  end.

Definition run_sched (sched : list nat) (sts : list S) : list S :=
  fold_left (fun st i => tick i st) sched sts.

Lemma tick_length : forall i sts, length (tick i sts) = length sts.
Proof.
  intros i sts. revert i. induction sts as [|s r IH]; intros [|j]; simpl; auto.
Qed.

Lemma run_length : forall sched sts, length (run_sched sched sts) = length sts.
Proof.
  induction sched as [|a sched IH]; intros sts; simpl; auto.
  unfold run_sched in *. simpl. rewrite IH. apply tick_length.
Qed.

Lemma tick_nth_same : forall i sts d,
  i < length sts -> nth i (tick i sts) d = step (nth i sts d).
Proof.
  intros i sts. revert i. induction sts as [|s r IH]; intros [|j] d H; simpl in *; try lia; auto.
  apply IH. lia.
Qed.

Lemma tick_nth_other : forall i j sts d, i <> j -> nth j (tick i sts) d = nth j sts d.
Proof.
  intros i j sts. revert i j.
  induction sts as [|s r IH]; intros [|i] [|j] d H; simpl; auto; try congruence.
Qed.

Lemma iter_succ_r : forall n (f : S -> S) x, Nat.iter (Datatypes.S n) f x = Nat.iter n f (f x).
Proof.
  induction n as [|n IH]; intros f x; simpl; auto.
  simpl in IH. rewrite IH. reflexivity.
Qed.

Theorem schedule_independence : forall sched sts i d,
  i < length sts ->
  nth i (run_sched sched sts) d =
  Nat.iter (count_occ Nat.eq_dec sched i) step (nth i sts d).
Proof.
  induction sched as [|a sched IH]; intros sts i d Hi.
  - reflexivity.
  - change (run_sched (a :: sched) sts) with (run_sched sched (tick a sts)).
    rewrite IH by (rewrite tick_length; exact Hi).
    simpl count_occ. destruct (Nat.eq_dec a i) as [->|Hne].
    + rewrite tick_nth_same by exact Hi. rewrite iter_succ_r. reflexivity.
    + rewrite tick_nth_other by exact Hne. reflexivity.
Qed.

(* two schedules that give every instance the same number of steps end in the
   same states - in particular any two interleavings of the same N runs *)
Corollary same_counts_same_states : forall sched sched' sts,
  (forall i, i < length sts ->
     count_occ Nat.eq_dec sched i = count_occ Nat.eq_dec sched' i) ->
  run_sched sched sts = run_sched sched' sts.
Proof.
  intros sched sched' sts H. apply nth_ext_any.
  - rewrite !run_length. reflexivity.
  - intros i d Hi. rewrite run_length in Hi.
    rewrite !schedule_independence by exact Hi. rewrite H by exact Hi. reflexivity.
Qed.

(* the sequential schedule: instance i for k_0 ticks, then instance i+1 for
   k_1 ticks, ... *)
Fixpoint seq_sched (i : nat) (ks : list nat) : list nat :=
  match ks with
  | [] => []
  | k :: ks' => repeat i k ++ seq_sched (Datatypes.S i) ks'
  end.

Lemma seq_sched_count_lt : forall ks b j, j < b -> count_occ Nat.eq_dec (seq_sched b ks) j = 0.
Proof.
  induction ks as [|k ks IH]; intros b j Hj; simpl; [reflexivity|].
  rewrite count_occ_app, count_occ_repeat_neq by lia. apply IH. lia.
Qed.

Lemma seq_sched_count : forall ks b j,
  count_occ Nat.eq_dec (seq_sched b ks) (b + j) = nth j ks 0.
Proof.
  induction ks as [|k ks IH]; intros b j; simpl; [destruct j; reflexivity|].
  rewrite count_occ_app. destruct j as [|j].
  - rewrite Nat.add_0_r, count_occ_repeat_eq, seq_sched_count_lt by auto. lia.
  - rewrite count_occ_repeat_neq by lia. rewrite <- Nat.add_succ_comm. apply IH.
Qed.

Corollary concurrent_equals_sequential : forall sched ks sts,
  length ks = length sts ->
  (forall i, i < length sts -> count_occ Nat.eq_dec sched i = nth i ks 0) ->
  run_sched sched sts = run_sched (seq_sched 0 ks) sts.
Proof.
  intros sched ks sts _ H. apply same_counts_same_states. intros i Hi.
  rewrite (H i Hi). symmetry. apply (seq_sched_count ks 0 i).
Qed.

Fixpoint seq_run (ks : list nat) (sts : list S) : list S :=
  match ks, sts with
  | k :: ks', s :: sts' => Nat.iter k step s :: seq_run ks' sts'
  | _, _ => sts
  end.

Lemma seq_run_length : forall ks sts, length (seq_run ks sts) = length sts.
Proof.
  induction ks as [|k ks IH]; intros [|s sts]; simpl; auto.
Qed.

Lemma seq_run_nth : forall ks sts i d,
  i < length sts ->
  nth i (seq_run ks sts) d = Nat.iter (nth i ks 0) step (nth i sts d).
Proof.
  induction ks as [|k ks IH]; intros [|s sts] [|i] d Hi; simpl in *; try lia; auto.
  apply IH; lia.
Qed.

Theorem interleaving_outcomes : forall sched ks sts,
  (forall i, i < length sts -> count_occ Nat.eq_dec sched i = nth i ks 0) ->
  run_sched sched sts = seq_run ks sts.
Proof.
  intros sched ks sts H. apply nth_ext_any.
  - rewrite run_length, seq_run_length. reflexivity.
  - intros i d Hi. rewrite run_length in Hi. rewrite schedule_independence by exact Hi.
    rewrite seq_run_nth by assumption. rewrite (H i Hi). reflexivity.
Qed.

End Sched.

Print Assumptions schedule_independence.
Print Assumptions same_counts_same_states.
Print Assumptions interleaving_outcomes.
Print Assumptions concurrent_equals_sequential.
