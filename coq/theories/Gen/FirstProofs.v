(* Theorems about FirstModel.v: the table [first_tab] is sound and complete
   for FIRST and nullable with respect to the parse trees of Parse/Grammar.v,
   its fuel suffices, and [first_go] (lr1.First before /repo commit 22ac39a)
   disagrees with it. *)
From Coq Require Import List Arith Lia Bool.
From Lox Require Import Parse.Grammar Gen.FirstModel.
Import ListNotations.

Lemma ins_nat_In x y l : In x (ins_nat y l) <-> y = x \/ In x l.
Proof.
  induction l as [|z l IH]; cbn [ins_nat].
  - reflexivity.
  - destruct (y <? z) eqn:Hlt; [reflexivity|].
    destruct (y =? z) eqn:Heq; cbn [In].
    + apply Nat.eqb_eq in Heq. subst z. split; [auto | intros [<- | H]; auto].
    + rewrite IH. clear. tauto.
Qed.

Lemma sort_nat_In x l : In x (sort_nat l) <-> In x l.
Proof.
  induction l as [|y l IH]; cbn [sort_nat fold_right]; [reflexivity|].
  fold (sort_nat l). rewrite ins_nat_In, IH. reflexivity.
Qed.

Lemma somes_In t l : In t (somes l) <-> In (Some t) l.
Proof.
  induction l as [|[u|] l IH]; cbn [somes In].
  - reflexivity.
  - rewrite IH. split; intros [H|H]; auto; left; congruence.
  - rewrite IH. split; [auto | intros [H|H]; [discriminate | auto]].
Qed.

Lemma on_eqb_eq a b : on_eqb a b = true <-> a = b.
Proof.
  destruct a as [x|], b as [y|]; cbn; try (split; congruence).
  rewrite Nat.eqb_eq. split; congruence.
Qed.

Lemma entry_eqb_eq a b : entry_eqb a b = true <-> a = b.
Proof.
  destruct a as [n x], b as [m y]. unfold entry_eqb. cbn [fst snd].
  rewrite andb_true_iff, Nat.eqb_eq, on_eqb_eq. split; [intros [-> ->]; reflexivity | intros H; inversion H; auto].
Qed.

Lemma tmem_In e tab : tmem e tab = true <-> In e tab.
Proof.
  unfold tmem. rewrite existsb_exists. split.
  - intros (x & Hx & He). apply entry_eqb_eq in He. now subst.
  - intros H. exists e. split; [exact H | now apply entry_eqb_eq].
Qed.

Lemma tadd_In x e tab : In x (tadd e tab) <-> e = x \/ In x tab.
Proof.
  unfold tadd. destruct (tmem e tab) eqn:Hm; [|reflexivity].
  apply tmem_In in Hm. split; [auto | intros [<- | H]; auto].
Qed.

Lemma tadd_all_In x l tab : In x (tadd_all l tab) <-> In x l \/ In x tab.
Proof.
  unfold tadd_all. revert tab. induction l as [|e l IH]; intros tab; cbn [fold_left In].
  - tauto.
  - rewrite IH, tadd_In. clear. tauto.
Qed.

Lemma tfirst_In x n tab :
  In x (tfirst n tab) <-> exists t, x = Some t /\ In (n, Some t) tab.
Proof.
  induction tab as [|[m [t|]] tab IH]; cbn [tfirst In].
  - split; [intros [] | intros (t & _ & [])].
  - destruct (Nat.eqb_spec m n) as [-> | Hmn]; cbn [In]; rewrite IH; split.
    + intros [<- | (u & Hu & Hin)]; eauto.
    + intros (u & -> & [[= <-] | Hin]); eauto.
    + intros (u & Hu & Hin). eauto.
    + intros (u & Hu & [[= Hm _] | Hin]); [contradiction | eauto].
  - rewrite IH. split; intros (u & Hu & Hin); [eauto|].
    destruct Hin as [[=] | Hin]. eauto.
Qed.

Lemma seq_first_cons tab X beta x :
  In x (seq_first tab (X :: beta)) <->
  match X with
  | T t => x = Some t
  | NT n => (exists a, x = Some a /\ In (n, Some a) tab) \/
            (In (n, None) tab /\ In x (seq_first tab beta))
  end.
Proof.
  destruct X as [t|n]; cbn [seq_first].
  - split; [intros [<-|[]]; reflexivity | intros ->; now left].
  - rewrite in_app_iff, tfirst_In. destruct (tmem (n, None) tab) eqn:Hm.
    + apply tmem_In in Hm. tauto.
    + assert (~ In (n, None) tab) by (rewrite <- tmem_In; congruence). cbn [In]. tauto.
Qed.

Lemma new_entries_In e g tab :
  In e (new_entries g tab) <->
  exists pr, In pr g /\ fst e = lhs pr /\ In (snd e) (seq_first tab (rhs pr)).
Proof.
  unfold new_entries. rewrite in_flat_map. split.
  - intros (pr & Hpr & Hin). apply in_map_iff in Hin. destruct Hin as (x & <- & Hx).
    exists pr. cbn. auto.
  - intros (pr & Hpr & Hl & Hx). exists pr. split; [exact Hpr|].
    apply in_map_iff. exists (snd e). split; [destruct e; cbn in *; congruence | exact Hx].
Qed.

Lemma step_In n x g tab :
  In (n, x) (step g tab) <->
  In (n, x) tab \/ exists pr, In pr g /\ lhs pr = n /\ In x (seq_first tab (rhs pr)).
Proof.
  unfold step. rewrite tadd_all_In, new_entries_In. cbn [fst snd]. split.
  - intros [(pr & Hpr & Hl & Hx) | Hin]; [right; exists pr; auto | now left].
  - intros [Hin | (pr & Hpr & Hl & Hx)]; [now right | left; exists pr; auto].
Qed.

Lemma saturate_ind (P : list entry -> Prop) g :
  (forall tab, P tab -> P (step g tab)) ->
  forall fuel tab, P tab -> P (saturate fuel g tab).
Proof.
  intros Hstep. induction fuel as [|f IH]; intros tab H; cbn [saturate]; [exact H|].
  destruct (stable_b g tab); auto.
Qed.

Definition stable (g : grammar) (tab : list entry) : Prop :=
  forall pr x, In pr g -> In x (seq_first tab (rhs pr)) -> In (lhs pr, x) tab.

Lemma stable_b_spec g tab : stable_b g tab = true <-> stable g tab.
Proof.
  unfold stable_b, stable. rewrite forallb_forall. split.
  - intros H pr x Hpr Hx. apply tmem_In. apply H. apply new_entries_In.
    exists pr. cbn. auto.
  - intros H e He. apply tmem_In. apply new_entries_In in He.
    destruct He as (pr & Hpr & Hl & Hx). destruct e as [n x]. cbn in *. subst n. now apply H.
Qed.

(* every symbol used on a right-hand side derives some terminal string
   (the grammar is "reduced"); needed because FIRST only looks at the prefix
   of a right-hand side whereas a parse tree needs all of it. *)
Definition productive (g : grammar) : Prop :=
  forall pr n, In pr g -> In (NT n) (rhs pr) -> exists t u, wt g (NT n) t u.

Definition justified (g : grammar) (e : entry) : Prop :=
  match e with
  | (n, None) => exists t, wt g (NT n) t []
  | (n, Some a) => exists t i u, wt g (NT n) t ((a, i) :: u)
  end.

Definition tab_sound (g : grammar) (tab : list entry) : Prop :=
  forall e, In e tab -> justified g e.

Definition seq_justified (g : grammar) (beta : list sym) (x : option nat) : Prop :=
  match x with
  | None => exists ts, wf g beta ts []
  | Some a => exists ts i u, wf g beta ts ((a, i) :: u)
  end.

(* an entry (n, x) says x = hd_on u of some yield u of rule n, nullable or not *)
Definition hd_on (u : list token) : option nat :=
  match u with [] => None | (a, _) :: _ => Some a end.

Lemma hd_on_app u v :
  hd_on (u ++ v) = match hd_on u with Some a => Some a | None => hd_on v end.
Proof. destruct u as [|[a i] u]; reflexivity. Qed.

Lemma hd_on_ex {A} (R : A -> list token -> Prop) x :
  match x with
  | None => exists t, R t []
  | Some a => exists t i u, R t ((a, i) :: u)
  end <-> exists t u, R t u /\ hd_on u = x.
Proof.
  destruct x as [a|]; split.
  - intros (t & i & u & H). exists t, ((a, i) :: u). auto.
  - intros (t & [|[b i] u] & H & E); [discriminate|]. injection E as ->. eauto.
  - intros (t & H). exists t, []. auto.
  - intros (t & [|[b i] u] & H & E); [eauto | discriminate].
Qed.

Lemma justified_hd g n x :
  justified g (n, x) <-> exists t u, wt g (NT n) t u /\ hd_on u = x.
Proof. exact (hd_on_ex (wt g (NT n)) x). Qed.

Lemma seq_justified_hd g beta x :
  seq_justified g beta x <-> exists ts u, wf g beta ts u /\ hd_on u = x.
Proof. exact (hd_on_ex (wf g beta) x). Qed.

(* soundness of the entries (n, x) with P x: P is "x = None" for the nullable
   part, which holds for every grammar, and "True" under [productive] *)
Definition tab_sound_on (P : option nat -> Prop) (g : grammar) (tab : list entry) : Prop :=
  forall n x, P x -> In (n, x) tab -> justified g (n, x).

Lemma wf_exists g beta :
  (forall n, In (NT n) beta -> exists t u, wt g (NT n) t u) ->
  exists ts u, wf g beta ts u.
Proof.
  induction beta as [|X beta IH]; intros Hp.
  - exists [], []. constructor.
  - destruct IH as (ts & us & Hwf); [intros n Hn; apply Hp; now right|].
    destruct X as [t|n].
    + exists (Leaf (t, 0) :: ts), ([(t, 0)] ++ us). constructor; [constructor | exact Hwf].
    + destruct (Hp n) as (tr & u & Hwt); [now left|].
      exists (tr :: ts), (u ++ us). now constructor.
Qed.

(* Only a terminal head needs the rest of beta to derive something; the
   nullable case recurses on symbols whose entries are (_, None). *)
Lemma seq_first_sound (P : option nat -> Prop) g tab beta x :
  P None -> tab_sound_on P g tab -> P x ->
  (x <> None -> forall n, In (NT n) beta -> exists t u, wt g (NT n) t u) ->
  In x (seq_first tab beta) -> seq_justified g beta x.
Proof.
  intros HP0 Hs HPx Hp Hin. apply seq_justified_hd.
  induction beta as [|X beta IH].
  - destruct Hin as [<-|[]]. exists [], []. split; [constructor | reflexivity].
  - assert (Hrest : x <> None -> exists ts u, wf g beta ts u).
    { intros Hx. apply wf_exists. intros n Hn. apply (Hp Hx). now right. }
    apply seq_first_cons in Hin.
    destruct X as [t|n]; [subst x | destruct Hin as [(a & -> & Hin) | (Hm & Hin)]].
    + destruct Hrest as (ts & us & Hwf); [discriminate|].
      exists (Leaf (t, 0) :: ts), ([(t, 0)] ++ us).
      split; [constructor; [constructor | exact Hwf] | reflexivity].
    + apply (Hs _ _ HPx), justified_hd in Hin. destruct Hin as (tr & u & Htr & Hu).
      destruct Hrest as (ts & us & Hwf); [discriminate|].
      exists (tr :: ts), (u ++ us). split; [now constructor|]. now rewrite hd_on_app, Hu.
    + apply (Hs _ _ HP0), justified_hd in Hm. destruct Hm as (tr & u & Htr & Hu).
      destruct IH as (ts & us & Hwf & Hus); [|exact Hin|].
      { intros Hx m Hm. apply (Hp Hx). now right. }
      exists (tr :: ts), (u ++ us). split; [now constructor|]. now rewrite hd_on_app, Hu.
Qed.

(* nullable entries never need productivity *)
Lemma seq_first_sound_none g tab beta :
  tab_sound g tab -> In None (seq_first tab beta) -> seq_justified g beta None.
Proof.
  intros Hs. apply (seq_first_sound (fun _ => True)); auto; [|congruence].
  intros n x _ Hin. exact (Hs _ Hin).
Qed.

Lemma first_tab_sound (P : option nat -> Prop) g :
  P None -> (forall x, P x -> x <> None -> productive g) -> tab_sound_on P g (first_tab g).
Proof.
  intros HP0 HP. apply (saturate_ind (tab_sound_on P g)); [|intros n x _ []].
  intros tab Hs n x HPx He. apply step_In in He.
  destruct He as [He | (pr & Hpr & <- & Hx)]; [now apply Hs|].
  apply (seq_first_sound P g tab (rhs pr) x HP0 Hs HPx), seq_justified_hd in Hx.
  - destruct Hx as (ts & u & Hwf & Hu). apply In_nth_error in Hpr. destruct Hpr as (p & Hp).
    apply justified_hd. exists (Node p ts), u. split; [econstructor; eauto | exact Hu].
  - intros Hx0 m Hm. now apply (HP x HPx Hx0 pr).
Qed.

Theorem nullable_spec_sound g n :
  nullable_spec g n = true -> exists tr, wt g (NT n) tr [].
Proof.
  unfold nullable_spec, nullable_tab. intros H. apply tmem_In in H.
  refine (first_tab_sound (fun x => x = None) g eq_refl _ n None eq_refl H). congruence.
Qed.

Theorem first_spec_sound g n :
  productive g ->
  (forall t, In t (first_spec g n) -> exists tr i u, wt g (NT n) tr ((t, i) :: u)) /\
  (nullable_spec g n = true -> exists tr, wt g (NT n) tr []).
Proof.
  intros Hprod. split; [|apply nullable_spec_sound].
  intros t Ht. unfold first_spec, first_of_tab in Ht.
  apply sort_nat_In, somes_In, tfirst_In in Ht. destruct Ht as (a & [= <-] & Hin).
  apply (first_tab_sound (fun _ => True) g) in Hin; auto.
Qed.

Theorem first_seq_spec_sound g beta a t :
  productive g ->
  (forall n, In (NT n) beta -> exists tr u, wt g (NT n) tr u) ->
  In t (first_seq_spec g beta a) ->
  exists ts i u, wf g (beta ++ [T a]) ts ((t, i) :: u).
Proof.
  intros Hprod Hbeta Ht. unfold first_seq_spec, first_seq_tab in Ht.
  apply sort_nat_In, somes_In in Ht.
  apply (seq_first_sound (fun _ => True) g (first_tab g) (beta ++ [T a]) (Some t)); auto.
  - now apply first_tab_sound; auto.
  - intros _ n Hn. apply in_app_or in Hn. destruct Hn as [Hn | [Hn|[]]]; [auto | discriminate].
Qed.

Lemma complete_stable g tab :
  stable g tab ->
  (forall X t u, wt g X t u -> forall n, X = NT n -> In (n, hd_on u) tab) /\
  (forall Xs ts u, wf g Xs ts u -> In (hd_on u) (seq_first tab Xs)).
Proof.
  intros Hst.
  apply (wt_wf_ind g
    (fun X t u _ => forall n, X = NT n -> In (n, hd_on u) tab)
    (fun Xs ts u _ => In (hd_on u) (seq_first tab Xs))).
  - discriminate.
  - intros p pr ch u Hnth Hwf IH n [= <-]. apply nth_error_In in Hnth. now apply Hst.
  - now left.
  - intros X t u Xs ts us Hwt IHt Hwf IHs. rewrite hd_on_app. apply seq_first_cons.
    destruct X as [b|n]; [inversion Hwt; reflexivity|].
    specialize (IHt n eq_refl). destruct (hd_on u) as [a|]; [left; eauto | right; auto].
Qed.

Theorem first_complete_stable g tab :
  stable g tab ->
  forall n tr u, wt g (NT n) tr u ->
    (u = [] -> nullable_tab tab n = true) /\
    (forall a i u', u = (a, i) :: u' -> In a (first_of_tab tab n)).
Proof.
  intros Hst n tr u Hwt.
  pose proof (proj1 (complete_stable g tab Hst) _ _ _ Hwt n eq_refl) as H. split.
  - intros ->. now apply tmem_In.
  - intros a i u' ->. apply sort_nat_In, somes_In, tfirst_In. eauto.
Qed.

Definition sym_on (X : sym) : option nat := match X with T t => Some t | NT _ => None end.

(* all entries that can ever appear.  [sym_on] sends a nonterminal to None,
   which is harmless: None is consed in front anyway. *)
Definition universe (g : grammar) : list entry :=
  list_prod (map lhs g) (None :: map sym_on (flat_map rhs g)).

Lemma universe_length g : length (universe g) = length g * S (length (flat_map rhs g)).
Proof.
  unfold universe.
  transitivity (length (map lhs g) * length (None :: map sym_on (flat_map rhs g))).
  - apply prod_length.
  - cbn [length]. now rewrite !map_length.
Qed.

Lemma seq_first_universe g tab beta x :
  incl tab (universe g) -> incl beta (flat_map rhs g) ->
  In x (seq_first tab beta) -> In x (None :: map sym_on (flat_map rhs g)).
Proof.
  intros Ht. induction beta as [|X beta IH]; intros Hb Hin.
  - destruct Hin as [<-|[]]. now left.
  - apply seq_first_cons in Hin.
    destruct X as [t|n]; [subst x | destruct Hin as [(a & -> & Hin) | (_ & Hin)]].
    + right. apply in_map_iff. exists (T t). split; [reflexivity|]. apply Hb. now left.
    + apply Ht in Hin. unfold universe in Hin. apply in_prod_iff in Hin. tauto.
    + apply IH; [|exact Hin]. intros y Hy. apply Hb. now right.
Qed.

Lemma step_universe g tab : incl tab (universe g) -> incl (step g tab) (universe g).
Proof.
  intros Ht [n x] He. apply step_In in He.
  destruct He as [He | (pr & Hpr & <- & Hx)]; [now apply Ht|].
  unfold universe. apply in_prod_iff. split.
  - apply in_map. exact Hpr.
  - apply (seq_first_universe g tab (rhs pr)); auto.
    intros y Hy. apply in_flat_map. exists pr. auto.
Qed.

Lemma tadd_NoDup e tab : NoDup tab -> NoDup (tadd e tab).
Proof.
  intros Hn. unfold tadd. destruct (tmem e tab) eqn:Hm; [exact Hn|].
  constructor; [|exact Hn]. intros Hin. apply tmem_In in Hin. congruence.
Qed.

Lemma tadd_all_NoDup l tab : NoDup tab -> NoDup (tadd_all l tab).
Proof.
  unfold tadd_all. revert tab. induction l as [|e l IH]; intros tab Hn; cbn [fold_left]; [exact Hn|].
  apply IH. now apply tadd_NoDup.
Qed.

(* a step that adds nothing has all its new entries in the table already *)
Lemma step_grows g tab :
  NoDup tab -> stable_b g tab = false -> length tab < length (step g tab).
Proof.
  intros Hn Hst. apply Nat.nle_gt. intros Hle.
  assert (Hsub : incl (step g tab) tab).
  { apply NoDup_length_incl; [exact Hn | exact Hle|].
    intros e He. apply tadd_all_In. now right. }
  rewrite <- not_true_iff_false in Hst. apply Hst, forallb_forall.
  intros e He. apply tmem_In, Hsub, tadd_all_In. now left.
Qed.

Lemma saturate_stable g fuel tab :
  NoDup tab -> incl tab (universe g) ->
  length (universe g) < length tab + fuel ->
  stable_b g (saturate fuel g tab) = true.
Proof.
  revert tab. induction fuel as [|f IH]; intros tab Hn Hu Hlen.
  - pose proof (NoDup_incl_length Hn Hu). lia.
  - cbn [saturate]. destruct (stable_b g tab) eqn:Hst; [exact Hst|].
    apply IH.
    + unfold step. now apply tadd_all_NoDup.
    + now apply step_universe.
    + pose proof (step_grows g tab Hn Hst). lia.
Qed.

Theorem first_tab_stable g : stable g (first_tab g).
Proof.
  apply stable_b_spec. unfold first_tab. apply saturate_stable.
  - constructor.
  - intros e [].
  - rewrite universe_length. unfold first_fuel. cbn [length]. lia.
Qed.

Corollary first_tab_ok_true g : first_tab_ok g = true.
Proof. unfold first_tab_ok. apply stable_b_spec, first_tab_stable. Qed.

Theorem first_spec_complete g n tr u :
  wt g (NT n) tr u ->
  (u = [] -> nullable_spec g n = true) /\
  (forall a i u', u = (a, i) :: u' -> In a (first_spec g n)).
Proof. apply first_complete_stable, first_tab_stable. Qed.

Theorem first_seq_spec_complete g beta a ts t i u :
  wf g (beta ++ [T a]) ts ((t, i) :: u) -> In t (first_seq_spec g beta a).
Proof.
  intros Hwf. unfold first_seq_spec, first_seq_tab. apply sort_nat_In, somes_In.
  exact (proj2 (complete_stable g (first_tab g) (first_tab_stable g)) _ _ _ Hwf).
Qed.

(* lr1.First as it stood before /repo commit 22ac39a (which replaced it by the
   least fixed point ruleFirstSets) was not FIRST.

   Grammar g_d1:  S' -> s;  s -> q xs E;  q -> Z;  xs -> xs x | (empty);  x -> A.
   Closure on the start item set processes [s -> . q xs E, EOF]  (B = q,
   beta = xs E, a = EOF) and called First(g, [xs, E, EOF]).  Inside, first(xs)
   marked xs visited, the production xs -> xs x called first(xs) again, which
   then returned the EMPTY set (no Epsilon), so the loop over xs x stopped
   before looking at x: first(xs) = {Epsilon} instead of {A, Epsilon}.  First
   returned {E}; the textbook value is {A, E}.  The item [q -> . Z, A] was
   therefore never generated, the state after Z had no action on A, and the
   sentence Z A E was rejected.  (The call for the item [s -> q . xs E, EOF] itself,
   First([E, EOF]) = {E}, was correct, and so was First([x, E]) = {A} for
   [xs -> . xs x, E].) *)

Example first_go_refuted :
  first_go g_d1 [NT 3; T 2; T 0] = [Some 2] /\        (* what Closure gets  *)
  first_seq_spec g_d1 [NT 3; T 2] 0 = [2; 4] /\       (* FIRST(xs E EOF)    *)
  first_go g_d1 [NT 3; T 2] = [Some 2] /\
  first_go g_d1 [NT 3] = [None] /\                    (* A is lost          *)
  first_spec g_d1 3 = [4].
Proof. vm_compute. repeat split. Qed.

(* The terminal really is a possible first token: a parse tree witnesses it,
   so the spec side is not an artefact ([first_seq_spec_complete] then puts 4
   into FIRST(xs E EOF)). *)
Example first_go_refuted_tree :
  wf g_d1 ([NT 3; T 2] ++ [T 0])
     [Node 3 [Node 4 []; Node 5 [Leaf (4, 0)]]; Leaf (2, 1); Leaf (0, 2)]
     [(4, 0); (2, 1); (0, 2)].
Proof.
  change [(4, 0); (2, 1); (0, 2)] with ([(4, 0)] ++ [(2, 1)] ++ [(0, 2)] ++ []).
  repeat constructor.
  change [(4, 0)] with ([] ++ [(4, 0)] ++ []).
  apply (wt_node g_d1 3 (mkp 3 [NT 3; NT 4])); [reflexivity|].
  constructor.
  - apply (wt_node g_d1 4 (mkp 3 [])); [reflexivity | constructor].
  - constructor; [|constructor].
    change [(4, 0)] with ([(4, 0)] ++ []).
    apply (wt_node g_d1 5 (mkp 4 [T 4])); [reflexivity|]. repeat constructor.
Qed.

(* The shared [visited] set also bites without left recursion: a nullable rule
   used twice.
   g_twice:  s -> a a E;  a -> B | (empty)     (E = 2, B = 3; s = 1, a = 2)
   First([a, a, E, EOF]) : the second first(a) returned {} : E is lost. *)
Definition g_twice : grammar :=
  [ mkp 0 [NT 1]; mkp 1 [NT 2; NT 2; T 2]; mkp 2 [T 3]; mkp 2 [] ].

Example first_go_refuted_twice :
  first_go g_twice [NT 2; NT 2; T 2; T 0] = [Some 3] /\
  first_seq_spec g_twice [NT 2; NT 2; T 2] 0 = [2; 3] /\
  (* and inside one rule: FIRST(s) loses E as well *)
  first_go g_twice [NT 1] = [Some 3] /\
  first_spec g_twice 1 = [2; 3].
Proof. vm_compute. repeat split. Qed.

Print Assumptions first_spec_sound.
Print Assumptions nullable_spec_sound.
Print Assumptions first_seq_spec_sound.
Print Assumptions first_complete_stable.
Print Assumptions first_tab_stable.
Print Assumptions first_spec_complete.
Print Assumptions first_seq_spec_complete.
Print Assumptions first_go_refuted.
Print Assumptions first_go_refuted_tree.
Print Assumptions first_go_refuted_twice.
