(* Property C13: the output does not depend on Go's map iteration order.
   Generic facts used at the places where the generator ranges over a map:
   - collect the entries, then sort them by an injective key  (sort_of_perm)
   - build a sorted duplicate-free set                        (sorted_dedup_canonical)
   - a loop whose body commutes with itself (insert into a set or map, set a
     flag)                              (fold_commutative_perm, fold_idempotent_set)
   and the instance for rang3's range heap, which mode.normalizeInputs fills
   by ranging over a map                                      (heap_of_perm, normalize_perm). *)
From Coq Require Import List Lia Permutation Sorted ZArith.
From Lox Require Import Rang3.RangeModel.
Import ListNotations.

Lemma Permutation_in_iff {A : Type} (l l' : list A) :
  Permutation l l' -> forall x, In x l <-> In x l'.
Proof.
  intros H x. split; apply Permutation_in; [|apply Permutation_sym]; exact H.
Qed.

Section Order.
Variable K : Type.
Variable cmp : K -> K -> comparison.
(* each lemma of the section names in `Proof using` the ones it rests on;
   sort_of_perm does without cmp_refl, sorted_dedup_canonical needs all four *)
Hypothesis cmp_eq : forall a b, cmp a b = Eq -> a = b.
Hypothesis cmp_refl : forall a, cmp a a = Eq.
Hypothesis cmp_antisym : forall a b, cmp a b = CompOpp (cmp b a).
Hypothesis cmp_trans : forall a b c, cmp a b = Lt -> cmp b c = Lt -> cmp a c = Lt.

Definition leb (a b : K) : bool := match cmp a b with Gt => false | _ => true end.

Lemma cmp_gt_lt : forall a b, cmp a b = Gt -> cmp b a = Lt.
Proof using cmp_antisym. intros a b H. rewrite cmp_antisym, H. reflexivity. Qed.

Lemma cmp_lt_gt : forall a b, cmp a b = Lt -> cmp b a = Gt.
Proof using cmp_antisym. intros a b H. rewrite cmp_antisym, H. reflexivity. Qed.

Lemma leb_false : forall a b, leb a b = false -> cmp b a = Lt.
Proof using cmp_antisym.
  unfold leb. intros a b H. destruct (cmp a b) eqn:E; try discriminate.
  apply cmp_gt_lt; auto.
Qed.

Lemma leb_true : forall a b, leb a b = true -> a = b \/ cmp a b = Lt.
Proof using cmp_eq.
  unfold leb. intros a b H. destruct (cmp a b) eqn:E; try discriminate; auto.
Qed.

Lemma leb_lt : forall a b, cmp a b = Lt -> leb a b = true.
Proof using Type. unfold leb. intros a b H. rewrite H. reflexivity. Qed.

Lemma lt_not_leb : forall a b, cmp a b = Lt -> leb b a = false.
Proof using cmp_antisym. unfold leb. intros a b H. rewrite (cmp_lt_gt _ _ H). reflexivity. Qed.

Lemma lt_irrefl : forall a, cmp a a <> Lt.
Proof using cmp_refl. intros a H. rewrite cmp_refl in H. discriminate. Qed.

Lemma leb_trans : forall a b c, leb a b = true -> leb b c = true -> leb a c = true.
Proof using cmp_eq cmp_refl cmp_trans.
  intros a b c H1 H2. apply leb_true in H1. apply leb_true in H2.
  destruct H1 as [->|H1]; destruct H2 as [->|H2].
  - unfold leb. rewrite cmp_refl. reflexivity.
  - apply leb_lt; auto.
  - apply leb_lt; auto.
  - apply leb_lt. eapply cmp_trans; eauto.
Qed.

Lemma leb_lt_trans : forall a b c, leb a b = true -> cmp b c = Lt -> cmp a c = Lt.
Proof using cmp_eq cmp_trans.
  intros a b c H1 H2. apply leb_true in H1. destruct H1 as [->|H1]; auto.
  eapply cmp_trans; eauto.
Qed.

Section Entries.
Variable E : Type.
Variable key : E -> K.

Fixpoint insert (x : E) (l : list E) : list E :=
  match l with
  | [] => [x]
  | y :: l' => if leb (key x) (key y) then x :: l else y :: insert x l'
  end.

Definition isort (l : list E) : list E := fold_right insert [] l.

Lemma insert_comm : forall x y l,
  key x <> key y -> insert x (insert y l) = insert y (insert x l).
Proof using cmp_eq cmp_antisym cmp_trans.
  intros x y l Hne.
  assert (Hflip : leb (key y) (key x) = negb (leb (key x) (key y))).
  { unfold leb. rewrite (cmp_antisym (key y) (key x)).
    destruct (cmp (key x) (key y)) eqn:Ec; try reflexivity. apply cmp_eq in Ec. contradiction. }
  induction l as [|z l IH]; simpl.
  - rewrite Hflip. destruct (leb (key x) (key y)); reflexivity.
  - destruct (leb (key x) (key z)) eqn:Exz; destruct (leb (key y) (key z)) eqn:Eyz; simpl.
    + (* both before z *)
      rewrite Exz, Eyz, Hflip. destruct (leb (key x) (key y)); reflexivity.
    + (* x <= z < y *)
      rewrite Exz, Eyz. apply leb_false in Eyz.
      rewrite (lt_not_leb _ _ (leb_lt_trans _ _ _ Exz Eyz)). reflexivity.
    + (* y <= z < x *)
      rewrite Exz, Eyz. apply leb_false in Exz.
      rewrite (lt_not_leb _ _ (leb_lt_trans _ _ _ Eyz Exz)). reflexivity.
    + rewrite Exz, Eyz. f_equal. exact IH.
Qed.

Theorem sort_of_perm : forall l l',
  Permutation l l' -> NoDup (map key l) -> isort l = isort l'.
Proof using cmp_eq cmp_antisym cmp_trans.
  intros l l' HP. induction HP as [|x l l' HP IH|x y l|l l' l'' HP1 IH1 HP2 IH2]; intros Hnd.
  - reflexivity.
  - simpl. inversion Hnd; subst. rewrite IH; auto.
  - simpl. apply insert_comm. simpl in Hnd. inversion Hnd; subst.
    intros E'. apply H1. simpl. auto.
  - rewrite IH1; auto. apply IH2.
    eapply Permutation_NoDup; [|exact Hnd]. apply Permutation_map. exact HP1.
Qed.

End Entries.

Fixpoint sinsert (x : K) (l : list K) : list K :=
  match l with
  | [] => [x]
  | y :: l' =>
    match cmp x y with
    | Eq => l
    | Lt => x :: l
    | Gt => y :: sinsert x l'
    end
  end.

Definition sdedup (l : list K) : list K := fold_right sinsert [] l.

Definition ssorted (l : list K) : Prop := StronglySorted (fun a b => cmp a b = Lt) l.

Lemma sinsert_in : forall x z l, In z (sinsert x l) <-> z = x \/ In z l.
Proof using cmp_eq.
  intros x z l. induction l as [|y l IH]; simpl.
  - split; intros [H|[]]; left; symmetry; exact H.
  - destruct (cmp x y) eqn:Ec; simpl.
    + apply cmp_eq in Ec. subst y. split; [tauto|intros [->|H]; [left; reflexivity|exact H]].
    + split; (intros [H|H]; [left; symmetry; exact H|right; exact H]).
    + rewrite IH. tauto.
Qed.

Lemma sinsert_sorted : forall x l, ssorted l -> ssorted (sinsert x l).
Proof using cmp_eq cmp_antisym cmp_trans.
  intros x l H. induction H as [|y l Hs IH Hall]; simpl.
  - constructor; constructor.
  - destruct (cmp x y) eqn:E.
    + constructor; auto.
    + constructor; [constructor; auto|]. constructor; auto.
      rewrite Forall_forall in *. intros z Hz. eapply cmp_trans; eauto.
    + constructor; auto. rewrite Forall_forall in *. intros z Hz.
      apply sinsert_in in Hz. destruct Hz as [->|Hz]; auto. apply cmp_gt_lt; auto.
Qed.

Lemma sdedup_sorted : forall l, ssorted (sdedup l).
Proof using cmp_eq cmp_antisym cmp_trans. induction l; simpl; [constructor|apply sinsert_sorted; auto]. Qed.

Lemma sdedup_in : forall z l, In z (sdedup l) <-> In z l.
Proof using cmp_eq.
  intros z l. induction l as [|x l IH]; simpl; [tauto|].
  rewrite sinsert_in, IH. split; (intros [H|H]; [left; symmetry; exact H|right; exact H]).
Qed.

Lemma ssorted_ext : forall l l',
  ssorted l -> ssorted l' -> (forall x, In x l <-> In x l') -> l = l'.
Proof using cmp_eq cmp_refl cmp_trans.
  intros l l' Hs. revert l'. induction Hs as [|a l Hs IH Ha]; intros l' Hs' Hext.
  - destruct l' as [|b l']; auto. exfalso. apply (Hext b). simpl; auto.
  - destruct Hs' as [|b l' Hs' Hb].
    + exfalso. apply (Hext a). simpl; auto.
    + rewrite Forall_forall in Ha, Hb.
      assert (a = b).
      { assert (H1 : In a (b :: l')) by (apply Hext; simpl; auto).
        assert (H2 : In b (a :: l)) by (apply Hext; simpl; auto).
        destruct H1 as [H1|H1]; auto. destruct H2 as [H2|H2]; auto.
        exfalso. apply (lt_irrefl a). eapply cmp_trans; [apply Ha|apply Hb]; eauto. }
      subst b. f_equal. apply IH; auto. intros x. split; intros Hx.
      * assert (H1 : In x (a :: l')) by (apply Hext; simpl; auto).
        destruct H1 as [<-|H1]; auto. exfalso. apply (lt_irrefl a). apply Ha; auto.
      * assert (H1 : In x (a :: l)) by (apply Hext; simpl; auto).
        destruct H1 as [<-|H1]; auto. exfalso. apply (lt_irrefl a). apply Hb; auto.
Qed.

Theorem sorted_dedup_canonical : forall l l',
  (forall x, In x l <-> In x l') -> sdedup l = sdedup l'.
Proof using cmp_eq cmp_refl cmp_antisym cmp_trans.
  intros l l' H. apply ssorted_ext; try apply sdedup_sorted.
  intros x. rewrite !sdedup_in. apply H.
Qed.

Corollary sorted_dedup_perm : forall l l', Permutation l l' -> sdedup l = sdedup l'.
Proof using cmp_eq cmp_refl cmp_antisym cmp_trans.
  intros l l' H. apply sorted_dedup_canonical. apply Permutation_in_iff. exact H.
Qed.

End Order.

Section Fold.
Variables (A S : Type) (f : A -> S -> S).
Hypothesis f_comm : forall a b s, f a (f b s) = f b (f a s).

Corollary fold_right_commutative_perm : forall l l' s,
  Permutation l l' -> fold_right f s l = fold_right f s l'.
Proof.
  intros l l' s HP.
  induction HP as [|x l l' HP IH|x y l|l l' l'' HP1 IH1 HP2 IH2]; simpl.
  - reflexivity.
  - rewrite IH. reflexivity.
  - apply f_comm.
  - rewrite IH1. exact IH2.
Qed.

Theorem fold_commutative_perm : forall l l' s,
  Permutation l l' ->
  fold_left (fun acc a => f a acc) l s = fold_left (fun acc a => f a acc) l' s.
Proof.
  intros l l' s HP. rewrite <- !fold_left_rev_right.
  apply fold_right_commutative_perm. now rewrite <- !Permutation_rev.
Qed.

(* with idempotence the result depends only on which elements occur, not on
   how often (a flag set, an element inserted twice) *)
Hypothesis f_idem : forall a s, f a (f a s) = f a s.

Lemma fold_right_absorb : forall l a s, In a l -> f a (fold_right f s l) = fold_right f s l.
Proof.
  induction l as [|x l IH]; simpl; intros a s H; [contradiction|].
  destruct H as [<-|H].
  - apply f_idem.
  - rewrite f_comm. rewrite IH; auto.
Qed.

Lemma fold_right_incl : forall l l' s,
  incl l l' -> fold_right f (fold_right f s l') l = fold_right f s l'.
Proof.
  induction l as [|a l IH]; simpl; intros l' s H; auto.
  rewrite IH by (intros x Hx; apply H; simpl; auto).
  apply fold_right_absorb. apply H. simpl. auto.
Qed.

Theorem fold_idempotent_set : forall l l' s,
  (forall x, In x l <-> In x l') -> fold_right f s l = fold_right f s l'.
Proof.
  intros l l' s H.
  assert (H1 : fold_right f s (l ++ l') = fold_right f s l').
  { rewrite fold_right_app. apply fold_right_incl. intros x Hx. apply H. exact Hx. }
  assert (H2 : fold_right f s (l' ++ l) = fold_right f s l).
  { rewrite fold_right_app. apply fold_right_incl. intros x Hx. apply H. exact Hx. }
  rewrite <- H1, <- H2. apply fold_right_commutative_perm. apply Permutation_app_comm.
Qed.

End Fold.

Definition range_cmp (a b : range) : comparison :=
  match Z.compare (rB a) (rB b) with
  | Eq => Z.compare (rE a) (rE b)
  | c => c
  end.

Lemma range_cmp_eq : forall a b, range_cmp a b = Eq -> a = b.
Proof.
  intros [a1 a2] [b1 b2]. unfold range_cmp, rB, rE. simpl.
  destruct (Z.compare_spec a1 b1); try discriminate.
  intros H'. apply Z.compare_eq in H'. congruence.
Qed.

Lemma range_cmp_refl : forall a, range_cmp a a = Eq.
Proof. intros a. unfold range_cmp. rewrite !Z.compare_refl. reflexivity. Qed.

Lemma range_cmp_antisym : forall a b, range_cmp a b = CompOpp (range_cmp b a).
Proof.
  intros a b. unfold range_cmp.
  rewrite (Z.compare_antisym (rB b) (rB a)), (Z.compare_antisym (rE b) (rE a)).
  destruct (rB b ?= rB a)%Z; reflexivity.
Qed.

Lemma range_cmp_lt : forall a b,
  range_cmp a b = Lt <-> (rB a < rB b \/ (rB a = rB b /\ rE a < rE b))%Z.
Proof.
  intros a b. unfold range_cmp.
  destruct (Z.compare_spec (rB a) (rB b)).
  - rewrite Z.compare_lt_iff. split; [auto|]. intros [H'|[_ H']]; [lia|auto].
  - split; auto.
  - split; [discriminate|]. intros [H'|[H' _]]; lia.
Qed.

Lemma range_cmp_trans : forall a b c,
  range_cmp a b = Lt -> range_cmp b c = Lt -> range_cmp a c = Lt.
Proof. intros a b c. rewrite !range_cmp_lt. lia. Qed.

Lemma heap_push_sinsert : forall x h, heap_push x h = sinsert range range_cmp x h.
Proof.
  intros x h. induction h as [|y h IH]; simpl; auto.
  (* both sides are a case analysis on the two comparisons *)
  unfold req, rlt, range_cmp, Z.ltb. rewrite !Z.eqb_compare, IH.
  destruct (rB x ?= rB y)%Z; destruct (rE x ?= rE y)%Z; reflexivity.
Qed.

Lemma heap_of_sdedup : forall l, heap_of l = sdedup range range_cmp (rev l).
Proof.
  intros l. unfold heap_of, sdedup. rewrite fold_left_rev_right.
  assert (H : forall acc, fold_left (fun h x => heap_push x h) l acc =
                          fold_left (fun h x => sinsert range range_cmp x h) l acc).
  { induction l as [|a l IH]; intros acc; simpl; auto.
    rewrite heap_push_sinsert. apply IH. }
  apply H.
Qed.

Theorem heap_of_set : forall l l',
  (forall x, In x l <-> In x l') -> heap_of l = heap_of l'.
Proof.
  intros l l' H. rewrite !heap_of_sdedup.
  apply (sorted_dedup_canonical range range_cmp range_cmp_eq range_cmp_refl
                                range_cmp_antisym range_cmp_trans).
  intros x. rewrite <- !in_rev. apply H.
Qed.

Theorem heap_of_perm : forall l l', Permutation l l' -> heap_of l = heap_of l'.
Proof.
  intros l l' H. apply heap_of_set. apply Permutation_in_iff. exact H.
Qed.

Theorem normalize_perm : forall l l', Permutation l l' -> normalize l = normalize l'.
Proof.
  (* normalize_fuel looks at the length of the input only *)
  intros l l' H. unfold normalize, normalize_fuel.
  rewrite (heap_of_perm l l' H), (Permutation_length H). reflexivity.
Qed.

Print Assumptions sort_of_perm.
Print Assumptions sorted_dedup_canonical.
Print Assumptions fold_commutative_perm.
Print Assumptions fold_idempotent_set.
Print Assumptions heap_of_perm.
Print Assumptions normalize_perm.
