(* The desugaring of the cardinality sugar (NormalizeModel.normalize) means what
   the documentation says: the plain grammar and the sugared grammar (with the
   documented meaning of ?, *, +, @list) have the same sentences, and every
   helper nonterminal has exactly two productions, at known positions, of the
   shape of its kind.  Helper reuse and numbering are shown by computation. *)
From Coq Require Import List Arith Lia Bool.
(* Gen.LALRProofs only for [sym_eqb_eq]; Parse.Tables only for [rkind], the
   result type of [hk_rkind]. *)
From Lox Require Import Gen.LALRProofs.
From Lox Require Import Parse.Grammar Parse.Tables Parse.Sugar Gen.NormalizeModel.
Import ListNotations.

Lemma hk_eqb_eq a b : hk_eqb a b = true <-> a = b.
Proof.
  split; [|intros ->; destruct b; reflexivity].
  destruct a, b; simpl; intros H; (reflexivity || discriminate H).
Qed.

Lemma osym_eqb_eq a b : osym_eqb a b = true <-> a = b.
Proof. destruct a, b; simpl; rewrite ?sym_eqb_eq; split; congruence. Qed.

Lemma hkey_eqb_eq a b : hkey_eqb a b = true <-> a = b.
Proof.
  destruct a as [[k1 c1] s1], b as [[k2 c2] s2]. simpl.
  rewrite !andb_true_iff, hk_eqb_eq, sym_eqb_eq, osym_eqb_eq.
  split; [intros [[-> ->] ->]; reflexivity | intros H; inversion H; auto].
Qed.

Lemma find_idx_spec k tbl :
  match find_idx k tbl with
  | Some j => nth_error tbl j = Some k
  | None => ~ In k tbl
  end.
Proof.
  induction tbl as [|a tbl IH]; simpl; [tauto|].
  destruct (hkey_eqb k a) eqn:E.
  - apply hkey_eqb_eq in E. subst. reflexivity.
  - destruct (find_idx k tbl); simpl; [exact IH|].
    intros [->|H]; [|tauto]. rewrite (proj2 (hkey_eqb_eq k k) eq_refl) in E. discriminate.
Qed.

Lemma find_idx_nodup k tbl : NoDup tbl -> forall j, nth_error tbl j = Some k -> find_idx k tbl = Some j.
Proof.
  intros Hnd j Hj. pose proof (find_idx_spec k tbl) as H.
  destruct (find_idx k tbl) as [j'|].
  - f_equal. apply (proj1 (NoDup_nth_error tbl) Hnd); [apply nth_error_Some|]; congruence.
  - destruct H. eapply nth_error_In, Hj.
Qed.

Lemma mem_key_in k tbl : mem_key k tbl = true <-> In k tbl.
Proof.
  unfold mem_key. pose proof (find_idx_spec k tbl) as H.
  destruct (find_idx k tbl); split; try discriminate; try tauto.
  intros _. eapply nth_error_In, H.
Qed.

Lemma helper_nt_in n k tbl : In k tbl ->
  exists j, nth_error tbl j = Some k /\ helper_nt n tbl k = NT (n + 1 + j).
Proof.
  intros Hin. unfold helper_nt. pose proof (find_idx_spec k tbl) as H.
  destruct (find_idx k tbl) as [j|]; [eauto|tauto].
Qed.

Definition closed (tbl : list hkey) : Prop :=
  forall k k', In k tbl -> sub_key k = Some k' -> In k' tbl.

Lemma sub_key_leaf k k' : sub_key k = Some k' -> sub_key k' = None.
Proof. destruct k as [[hk c] s]; destruct hk; simpl; intros [= <-]; reflexivity. Qed.

Lemma add_key_in tbl k x : In x (add_key tbl k) <-> In x tbl \/ x = k.
Proof.
  unfold add_key. destruct (mem_key k tbl) eqn:M.
  - apply mem_key_in in M. split; [auto|]. intros [H| ->]; assumption.
  - rewrite in_app_iff. simpl. intuition congruence.
Qed.

Lemma add_key_nodup tbl k : NoDup tbl -> NoDup (add_key tbl k).
Proof.
  intros H. unfold add_key. destruct (mem_key k tbl) eqn:M; [exact H|].
  apply (NoDup_Add (Add_app k tbl [])). rewrite app_nil_r. split; [exact H|].
  intros Hin. apply mem_key_in in Hin. congruence.
Qed.

Lemma request_add tbl k :
  request tbl k = tbl /\ In k tbl \/
  ~ In k tbl /\
  request tbl k =
    match sub_key k with Some k' => add_key (add_key tbl k) k' | None => add_key tbl k end.
Proof.
  unfold request. destruct (mem_key k tbl) eqn:M.
  - left. split; [reflexivity|apply mem_key_in, M].
  - right. split; [intros H; apply mem_key_in in H; congruence|].
    assert (E : add_key tbl k = tbl ++ [k]) by (unfold add_key; rewrite M; reflexivity).
    rewrite E. reflexivity.
Qed.

Lemma request_in_iff tbl k x :
  In x (request tbl k) <-> In x tbl \/ (~ In k tbl /\ (x = k \/ sub_key k = Some x)).
Proof.
  destruct (request_add tbl k) as [[-> Hk]|[Hk ->]]; [tauto|].
  destruct (sub_key k) as [k'|]; rewrite ?add_key_in; intuition congruence.
Qed.

Lemma request_self tbl k : In k (request tbl k).
Proof.
  apply request_in_iff. destruct (mem_key k tbl) eqn:M.
  - left. apply mem_key_in, M.
  - right. split; [|auto]. intros H. apply mem_key_in in H. congruence.
Qed.

Lemma request_closed tbl k : closed tbl -> closed (request tbl k).
Proof.
  intros Hc x x' Hx Hs. apply request_in_iff.
  apply request_in_iff in Hx. destruct Hx as [Hx|[Hk [->|Hx]]].
  - left. exact (Hc _ _ Hx Hs).
  - right. auto.
  - apply sub_key_leaf in Hx. congruence.
Qed.

Lemma request_nodup tbl k : NoDup tbl -> NoDup (request tbl k).
Proof.
  intros H. destruct (request_add tbl k) as [[-> _]|[_ ->]]; [exact H|].
  destruct (sub_key k); repeat apply add_key_nodup; exact H.
Qed.

Definition user_sym (n : nat) (X : sym) : Prop :=
  match X with T _ => True | NT r => 1 <= r <= n end.

Definition kok (n : nat) (k : hkey) : Prop :=
  match k with
  | (hk, c, s) =>
    user_sym n c /\
    match hk with
    | HList | HListOpt => exists s', s = Some s' /\ user_sym n s'
    | _ => True
    end
  end.

Lemma sub_key_kok n k k' : kok n k -> sub_key k = Some k' -> kok n k'.
Proof.
  destruct k as [[hk c] s]. destruct hk; simpl; intros [Hc Hs] [= <-]; simpl; auto.
Qed.

Lemma simpleb_rule n r : simpleb n (SRule r) = true -> 1 <= r <= n.
Proof.
  unfold simpleb. rewrite andb_true_iff, !Nat.leb_le. tauto.
Qed.

Lemma simpleb_user_sym n c : simpleb n c = true -> user_sym n (sym_of c).
Proof.
  destruct c as [t|r| |kc c|e s o]; try discriminate; try (intros _; exact I).
  apply simpleb_rule.
Qed.

Lemma list_argb_simpleb n c : list_argb n c = true -> simpleb n c = true.
Proof. destruct c; simpl; auto. Qed.

Lemma wf_term_kok n x k : wf_termb n x = true -> key_of x = Some k -> kok n k.
Proof.
  destruct x as [t|r| |kc c|e s o]; simpl; try discriminate.
  - intros Hc [= <-]. simpl. split; [apply simpleb_user_sym, Hc|]. destruct kc; exact I.
  - rewrite andb_true_iff. intros [He Hs].
    apply list_argb_simpleb, simpleb_user_sym in He.
    apply list_argb_simpleb, simpleb_user_sym in Hs.
    destruct o; intros [= <-]; simpl; eauto.
Qed.

(* the pass only looks at the keys of the terms *)
Definition keys (xs : list sterm) : list hkey :=
  flat_map (fun x => match key_of x with Some k => [k] | None => [] end) xs.

Lemma in_keys k xs : In k (keys xs) <-> exists x, In x xs /\ key_of x = Some k.
Proof.
  unfold keys. rewrite in_flat_map.
  split; intros (x & Hx & H); exists x; (split; [exact Hx|]);
    destruct (key_of x) as [k'|]; simpl in *; intuition congruence.
Qed.

Lemma fold_request_keys xs : forall tbl,
  fold_left request_term xs tbl = fold_left request (keys xs) tbl.
Proof.
  induction xs as [|x xs IH]; intros tbl; [reflexivity|].
  cbn [fold_left keys flat_map]. rewrite fold_left_app, IH.
  unfold request_term. destruct (key_of x); reflexivity.
Qed.

Lemma fold_request_props n ks : forall tbl,
  closed tbl -> NoDup tbl -> (forall k, In k tbl -> kok n k) -> (forall k, In k ks -> kok n k) ->
  let r := fold_left request ks tbl in
  closed r /\ NoDup r /\ (forall k, In k r -> kok n k) /\ (forall k, In k tbl \/ In k ks -> In k r).
Proof.
  induction ks as [|k ks IH]; intros tbl Hc Hnd Hok Hks; simpl.
  - repeat split; auto. intros k [H|[]]. exact H.
  - destruct (IH (request tbl k)) as (R1 & R2 & R3 & R4).
    + apply request_closed, Hc.
    + apply request_nodup, Hnd.
    + intros x Hx. apply request_in_iff in Hx. destruct Hx as [Hx|[_ [->|Hx]]].
      * apply Hok, Hx.
      * apply Hks. now left.
      * eapply sub_key_kok; [|exact Hx]. apply Hks. now left.
    + intros x Hx. apply Hks. now right.
    + repeat split; auto. intros x [Hx|[<-|Hx]]; apply R4.
      * left. apply request_in_iff. auto.
      * left. apply request_self.
      * right. exact Hx.
Qed.

Section Shape.
Variable n : nat.
Variable tb : list hkey.

Lemma in_user_prods rs : forall i pr, In pr (user_prods n tb i rs) <->
  exists r rl p, nth_error rs r = Some rl /\ In p rl /\
    pr = {| lhs := i + r + 1; rhs := map (tsym n tb) p |}.
Proof.
  induction rs as [|a rs IH]; intros i pr; simpl.
  - split; [tauto|]. intros ([|r] & rl & p & H & _); discriminate.
  - rewrite in_app_iff, IH. unfold user_prods_of. rewrite in_map_iff. split.
    + intros [(p & <- & Hp)|(r & rl & p & Hn & Hp & ->)].
      * exists 0, a, p. rewrite Nat.add_0_r. auto.
      * exists (S r), rl, p. repeat split; auto. f_equal. lia.
    + intros ([|r] & rl & p & Hn & Hp & ->); simpl in Hn.
      * injection Hn as ->. left. exists p. rewrite Nat.add_0_r. auto.
      * right. exists r, rl, p. repeat split; auto. f_equal. lia.
Qed.

Lemma user_prods_length rs : forall i, length (user_prods n tb i rs) = length (concat rs).
Proof.
  induction rs as [|a rs IH]; intros i; simpl; [reflexivity|].
  rewrite !app_length, IH. unfold user_prods_of. rewrite map_length. reflexivity.
Qed.

Lemma helper_prods_length l : forall j0, length (helper_prods n tb j0 l) = 2 * length l.
Proof.
  induction l as [|a l IH]; intros j0; cbn [helper_prods length]; [reflexivity|].
  rewrite IH. lia.
Qed.

Lemma nth_helper_prods l : forall j0 j k, nth_error l j = Some k ->
  nth_error (helper_prods n tb j0 l) (2 * j) =
    Some {| lhs := n + 1 + (j0 + j); rhs := helper_rhs1 n tb (n + 1 + (j0 + j)) k |} /\
  nth_error (helper_prods n tb j0 l) (S (2 * j)) =
    Some {| lhs := n + 1 + (j0 + j); rhs := helper_rhs2 k |}.
Proof.
  induction l as [|a l IH]; intros j0 [|j] k; cbn [nth_error]; try discriminate.
  - intros [= ->]. change (2 * 0) with 0. cbn [helper_prods nth_error].
    rewrite Nat.add_0_r. auto.
  - intros Hj. replace (2 * S j) with (S (S (2 * j))) by lia.
    cbn [helper_prods nth_error]. replace (j0 + S j) with (S j0 + j) by lia.
    apply IH. exact Hj.
Qed.

Lemma helper_prods_at l : forall j0 p pr, nth_error (helper_prods n tb j0 l) p = Some pr ->
  exists j k, nth_error l j = Some k /\
    (p = 2 * j /\
     pr = {| lhs := n + 1 + (j0 + j); rhs := helper_rhs1 n tb (n + 1 + (j0 + j)) k |} \/
     p = S (2 * j) /\ pr = {| lhs := n + 1 + (j0 + j); rhs := helper_rhs2 k |}).
Proof.
  induction l as [|a l IH]; intros j0 p pr; cbn [helper_prods].
  - destruct p; discriminate.
  - destruct p as [|[|p]]; cbn [nth_error].
    + intros [= <-]. exists 0, a. rewrite Nat.add_0_r. auto.
    + intros [= <-]. exists 0, a. rewrite Nat.add_0_r. auto.
    + intros H. destruct (IH _ _ _ H) as (j & k & Hj & Hp). exists (S j), k.
      replace (j0 + S j) with (S j0 + j) by lia. split; [exact Hj|].
      destruct Hp as [[-> ->]|[-> ->]]; [left|right]; split; auto; lia.
Qed.

End Shape.

Lemma node_in G0 h r ch u :
  In {| lhs := h; rhs := r |} G0 -> wf G0 r ch u -> exists t, wt G0 (NT h) t u.
Proof.
  intros Hin Hwf. apply In_nth_error in Hin. destruct Hin as [p Hp].
  exists (Node p ch). exact (wt_node G0 p {| lhs := h; rhs := r |} ch u Hp Hwf).
Qed.

Lemma wf_1 G0 X t u : wt G0 X t u -> wf G0 [X] [t] u.
Proof. intros H. rewrite <- (app_nil_r u). constructor; [exact H|constructor]. Qed.

Lemma wf_2 G0 X1 X2 t1 t2 u1 u2 :
  wt G0 X1 t1 u1 -> wt G0 X2 t2 u2 -> wf G0 [X1; X2] [t1; t2] (u1 ++ u2).
Proof. intros H1 H2. constructor; [exact H1|apply wf_1, H2]. Qed.

Lemma wf_nil_inv G0 ts u : wf G0 [] ts u -> ts = [] /\ u = [].
Proof. inversion 1; auto. Qed.

Lemma wf_cons_inv G0 X Xs ts u : wf G0 (X :: Xs) ts u ->
  exists t ts' u1 u2, ts = t :: ts' /\ u = u1 ++ u2 /\ wt G0 X t u1 /\ wf G0 Xs ts' u2.
Proof. inversion 1; subst; eauto 8. Qed.

(* Induction on the trees of a nonterminal h that has exactly two productions,
   p1 : h -> h r1 and p2 : h -> r2.  The only place where the mutual induction
   on wt/wf is needed; the second motive says that the first child of a p1 node
   is again a tree of h. *)
Lemma left_rec_ind G0 h p1 p2 r1 r2 (P : tree -> Prop) :
  nth_error G0 p1 = Some {| lhs := h; rhs := NT h :: r1 |} ->
  nth_error G0 p2 = Some {| lhs := h; rhs := r2 |} ->
  (forall p pr, nth_error G0 p = Some pr -> lhs pr = h -> p = p1 \/ p = p2) ->
  (forall t' ts u, P t' -> wf G0 r1 ts u -> P (Node p1 (t' :: ts))) ->
  (forall ts u, wf G0 r2 ts u -> P (Node p2 ts)) ->
  forall t u, wt G0 (NT h) t u -> P t.
Proof.
  intros Hp1 Hp2 Huniq Hrec Hbase t u Ht.
  refine (proj1 (wt_wf_ind G0 (fun X t u _ => X = NT h -> P t)
    (fun Xs ts us _ => forall Xs' t' ts', Xs = NT h :: Xs' -> ts = t' :: ts' -> P t')
    _ _ _ _) _ _ _ Ht eq_refl).
  - discriminate.
  - intros p pr ch v Hn Hch IH [= E].
    destruct (Huniq p pr Hn E) as [-> | ->].
    + rewrite Hp1 in Hn. injection Hn as <-. cbn [rhs] in *.
      destruct (wf_cons_inv _ _ _ _ _ Hch) as (t' & ts' & u1 & u2 & -> & _ & _ & Hts').
      exact (Hrec t' ts' u2 (IH _ _ _ eq_refl eq_refl) Hts').
    + rewrite Hp2 in Hn. injection Hn as <-. cbn [rhs] in *. eauto.
  - discriminate.
  - intros X t0 v Xs ts us _ IHt _ _ Xs' t' ts' [= -> ->] [= -> ->]. exact (IHt eq_refl).
Qed.

Definition tos (X : sym) : sterm := match X with T t => STok t | NT r => SRule r end.

Definition nuser (g : sgrammar) : nat := length (concat (sg_rules g)).

(* the two right-hand sides of helper nonterminal h with key k, as parser_term.go
   builds them (and as Parse/Sugar.v expects them):
     x?           h -> x              | (empty)
     x* , x*!     h -> (x+ / x+! helper) | (empty)
     x+ , x+!     h -> h x            | x
     @list(x,s)   h -> h s x          | x
     @list(x,s)?  h -> (@list(x,s) helper) | (empty) *)
Definition shape (n : nat) (tbl : list hkey) (h : nat) (k : hkey) (r1 r2 : list sym) : Prop :=
  match k with
  | (HOpt, c, _) => r1 = [c] /\ r2 = []
  | (HStar, c, _) =>
    exists j', nth_error tbl j' = Some (HPlus, c, None) /\ r1 = [NT (n + 1 + j')] /\ r2 = []
  | (HStarF, c, _) =>
    exists j', nth_error tbl j' = Some (HPlusF, c, None) /\ r1 = [NT (n + 1 + j')] /\ r2 = []
  | (HPlus, c, _) => r1 = [NT h; c] /\ r2 = [c]
  | (HPlusF, c, _) => r1 = [NT h; c] /\ r2 = [c]
  | (HList, c, s) => exists s', s = Some s' /\ r1 = [NT h; s'; c] /\ r2 = [c]
  | (HListOpt, c, s) =>
    exists j', nth_error tbl j' = Some (HList, c, s) /\ r1 = [NT (n + 1 + j')] /\ r2 = []
  end.

Lemma nth_error_kinds (tb : list hkey) : forall a j k, nth_error tb j = Some k ->
  nth_error (combine (seq a (length tb)) (map key_kind tb)) j = Some (a + j, key_kind k).
Proof.
  induction tb as [|x tb IH]; intros a [|j] k; simpl; try discriminate.
  - intros [= ->]. rewrite Nat.add_0_r. reflexivity.
  - intros Hj. rewrite (IH (S a) j k Hj). f_equal. f_equal. lia.
Qed.

(* x* / x*! and x+ / x+! differ in the kind only: f = true is the "!" one *)
Definition star_of (f : bool) : helper_kind := if f then HStarF else HStar.
Definition plus_of (f : bool) : helper_kind := if f then HPlusF else HPlus.

Section Main.
Variable g : sgrammar.
Hypothesis Hwf : wf_sgrammar g.

Notation n := (length (sg_rules g)).
Notation tbl := (collect g).
Notation G := (build g (collect g)).

Lemma start_range : 1 <= sg_start g <= n.
Proof.
  unfold wf_sgrammar, wf_sgrammarb in Hwf.
  rewrite !andb_true_iff, !Nat.leb_le in Hwf. tauto.
Qed.

Lemma terms_wf rl p x : In rl (sg_rules g) -> In p rl -> In x p -> wf_termb n x = true.
Proof.
  intros Hrl Hp Hx. unfold wf_sgrammar, wf_sgrammarb in Hwf.
  rewrite !andb_true_iff in Hwf. destruct Hwf as [_ H].
  rewrite forallb_forall in H. specialize (H _ Hrl).
  rewrite forallb_forall in H. specialize (H _ Hp).
  rewrite forallb_forall in H. exact (H _ Hx).
Qed.

Lemma in_all_terms x : In x (all_terms g) <-> exists rl p, In rl (sg_rules g) /\ In p rl /\ In x p.
Proof.
  unfold all_terms. rewrite in_concat. split.
  - intros [p [Hp Hx]]. apply in_concat in Hp. destruct Hp as [rl [Hrl Hp]]. eauto.
  - intros (rl & p & Hrl & Hp & Hx). exists p. split; [|exact Hx].
    apply in_concat. eauto.
Qed.

Lemma collect_props :
  closed tbl /\ NoDup tbl /\ (forall k, In k tbl -> kok n k) /\
  (forall x k, In x (all_terms g) -> key_of x = Some k -> In k tbl).
Proof.
  unfold collect. rewrite fold_request_keys.
  destruct (fold_request_props n (keys (all_terms g)) []) as (R1 & R2 & R3 & R4).
  - intros k k' [].
  - constructor.
  - intros k [].
  - intros k Hk. apply in_keys in Hk. destruct Hk as (x & Hx & Kx).
    apply in_all_terms in Hx. destruct Hx as (rl & p & Hrl & Hp & Hx).
    eapply wf_term_kok; [|exact Kx]. eapply terms_wf; eauto.
  - repeat split; auto. intros x k Hx Kx. apply R4. right. apply in_keys. eauto.
Qed.

Lemma tbl_closed : closed tbl. Proof. apply collect_props. Qed.
Lemma tbl_nodup : NoDup tbl. Proof. apply collect_props. Qed.
Lemma tbl_kok k : In k tbl -> kok n k. Proof. apply collect_props. Qed.
Lemma tbl_covers rl p x k :
  In rl (sg_rules g) -> In p rl -> In x p -> key_of x = Some k -> In k tbl.
Proof.
  intros Hrl Hp Hx. apply collect_props. apply in_all_terms. eauto.
Qed.

Lemma sub_helper k k' : In k tbl -> sub_key k = Some k' ->
  exists j', nth_error tbl j' = Some k' /\ helper_nt n tbl k' = NT (n + 1 + j').
Proof. intros Hin Sk. apply helper_nt_in. exact (tbl_closed _ _ Hin Sk). Qed.

Lemma in_G pr : In pr G <->
  pr = {| lhs := 0; rhs := [NT (sg_start g)] |} \/
  In pr (user_prods n tbl 0 (sg_rules g)) \/ In pr (helper_prods n tbl 0 tbl).
Proof.
  unfold build. cbn [In]. rewrite in_app_iff. intuition congruence.
Qed.

Lemma start_sym_G : start_sym G = Some (NT (sg_start g)).
Proof. reflexivity. Qed.

(* hkey holds symbols, and @error and the token ERROR are the same symbol: a
   simple term matches what the term of its symbol matches *)
Lemma tos_simple c u : simpleb n c = true -> sderives g (tos (sym_of c)) u -> sderives g c u.
Proof.
  destruct c; simpl; try discriminate; intros _ H; try exact H.
  inversion H. constructor.
Qed.

Lemma srep_mono c c' : (forall v, sderives g c v -> sderives g c' v) ->
  forall m u, srep g c m u -> srep g c' m u.
Proof.
  intros Hcc m u H. induction H as [c0|c0 m u v H IH Hd]; constructor; auto.
Qed.

Lemma sreplist_mono e e' s s' :
  (forall v, sderives g e v -> sderives g e' v) ->
  (forall v, sderives g s v -> sderives g s' v) ->
  forall m u, sreplist g e s m u -> sreplist g e' s' m u.
Proof.
  intros He Hs m u H. induction H as [e0 s0 u H|e0 s0 m u v w H IH Hv Hw]; constructor; auto.
Qed.

Definition helper_sem (k : hkey) (u : list token) : Prop :=
  match k with
  | (HOpt, c, _) => u = [] \/ sderives g (tos c) u
  | (HStar, c, _) | (HStarF, c, _) => exists m, srep g (tos c) m u
  | (HPlus, c, _) | (HPlusF, c, _) => exists m, srep g (tos c) (S m) u
  | (HList, c, Some s) => exists m, sreplist g (tos c) (tos s) m u
  | (HListOpt, c, Some s) => u = [] \/ exists m, sreplist g (tos c) (tos s) m u
  | (HList, _, None) | (HListOpt, _, None) => False
  end.

Inductive symsem : sym -> list token -> Prop :=
| ss_tok t i : symsem (T t) [(t, i)]
| ss_start u : ssentence g u -> symsem (NT 0) u
| ss_user r u : 1 <= r <= n -> sderives g (SRule r) u -> symsem (NT r) u
| ss_helper j k u : nth_error tbl j = Some k -> helper_sem k u -> symsem (NT (n + 1 + j)) u.

Inductive seqsem : list sym -> list token -> Prop :=
| sq_nil : seqsem [] []
| sq_cons X Xs u v : symsem X u -> seqsem Xs v -> seqsem (X :: Xs) (u ++ v).

Lemma seqsem0 u : seqsem [] u -> u = [].
Proof. inversion 1. reflexivity. Qed.

Lemma seqsem1 X u : seqsem [X] u -> symsem X u.
Proof.
  inversion 1 as [|X' Xs u1 u2 H1 H2]; subst. apply seqsem0 in H2. subst.
  rewrite app_nil_r. exact H1.
Qed.

Lemma seqsem_cons X Xs u : seqsem (X :: Xs) u ->
  exists u1 u2, u = u1 ++ u2 /\ symsem X u1 /\ seqsem Xs u2.
Proof. inversion 1; eauto. Qed.

Lemma symsem_user_inv r u : 1 <= r <= n -> symsem (NT r) u -> sderives g (SRule r) u.
Proof.
  intros Hr H. remember (NT r) as X eqn:E.
  destruct H as [t i|u Hs|r' u Hr' Hd|j k u Hn Hh]; try discriminate; injection E as E.
  - lia.
  - subst. exact Hd.
  - lia.
Qed.

Lemma symsem_helper_inv j k u : nth_error tbl j = Some k -> symsem (NT (n + 1 + j)) u -> helper_sem k u.
Proof.
  intros Hk H. remember (NT (n + 1 + j)) as X eqn:E.
  destruct H as [t i|u Hs|r' u Hr' Hd|j' k' u Hn Hh]; try discriminate; injection E as E.
  - lia.
  - lia.
  - assert (j' = j) by lia. subst. rewrite Hk in Hn. injection Hn as <-. exact Hh.
Qed.

Lemma symsem_usersym c u : user_sym n c -> symsem c u -> sderives g (tos c) u.
Proof.
  destruct c as [t|r]; simpl; intros Hc H.
  - inversion H. constructor.
  - apply symsem_user_inv; assumption.
Qed.

Lemma key_sem_sound x k u :
  wf_termb n x = true -> key_of x = Some k -> helper_sem k u -> sderives g x u.
Proof.
  destruct x as [t|r| |kc c|e s o]; simpl; try discriminate.
  - intros Hc [= <-].
    assert (Hrep : forall m, srep g (tos (sym_of c)) m u -> srep g c m u).
    { intros m. apply srep_mono. intros v. apply tos_simple, Hc. }
    destruct kc; simpl.
    + intros [->|H]; [apply sd_opt_none|]. apply sd_opt_some, tos_simple; assumption.
    + intros [m H]. apply sd_star with m, Hrep, H.
    + intros [m H]. apply sd_starf with m, Hrep, H.
    + intros [m H]. apply sd_plus with m, Hrep, H.
  - rewrite andb_true_iff. intros [He Hs].
    apply list_argb_simpleb in He. apply list_argb_simpleb in Hs.
    assert (Hrep : forall m, sreplist g (tos (sym_of e)) (tos (sym_of s)) m u -> sreplist g e s m u).
    { intros m. apply sreplist_mono; intros v; apply tos_simple; assumption. }
    destruct o; intros [= <-]; simpl.
    + intros [->|[m H]]; [apply sd_list_none|]. apply sd_list with m, Hrep, H.
    + intros [m H]. apply sd_list with m, Hrep, H.
Qed.

Lemma term_sound rl p x u :
  In rl (sg_rules g) -> In p rl -> In x p -> symsem (tsym n tbl x) u -> sderives g x u.
Proof.
  intros Hrl Hp Hx. pose proof (terms_wf _ _ _ Hrl Hp Hx) as Hw.
  unfold tsym. destruct (key_of x) as [k|] eqn:Kx.
  - destruct (helper_nt_in n k tbl (tbl_covers _ _ _ _ Hrl Hp Hx Kx)) as (j & Hn & ->).
    intros H. eapply key_sem_sound; [exact Hw|exact Kx|]. eapply symsem_helper_inv; eauto.
  - destruct x as [t|r| |kc c|e s o]; simpl in *; try discriminate.
    + inversion 1. constructor.
    + apply symsem_user_inv. apply simpleb_rule. exact Hw.
    + inversion 1. constructor.
    + destruct o; discriminate.
Qed.

Lemma prod_sound q : (forall x v, In x q -> symsem (tsym n tbl x) v -> sderives g x v) ->
  forall u, seqsem (map (tsym n tbl) q) u -> sprod g q u.
Proof.
  induction q as [|x q IH]; simpl; intros Hq u H.
  - apply seqsem0 in H. subst. constructor.
  - inversion H as [|X Xs u1 u2 H1 H2]; subst. constructor; [apply Hq|apply IH]; auto.
Qed.

(* the two rule shapes that come in a plain and a "!" flavour, over whatever
   nonterminal X stands for the repeated part *)
Lemma star_rule_sound c X u :
  (forall v, symsem X v -> exists m, srep g (tos c) (S m) v) ->
  (seqsem [X] u -> exists m, srep g (tos c) m u) /\
  (seqsem [] u -> exists m, srep g (tos c) m u).
Proof.
  intros HX. split; intros H.
  - apply seqsem1, HX in H. destruct H as [m H]. exists (S m). exact H.
  - apply seqsem0 in H. subst. exists 0. constructor.
Qed.

Lemma plus_rule_sound c h u : user_sym n c ->
  (forall v, symsem (NT h) v -> exists m, srep g (tos c) (S m) v) ->
  (seqsem [NT h; c] u -> exists m, srep g (tos c) (S m) u) /\
  (seqsem [c] u -> exists m, srep g (tos c) (S m) u).
Proof.
  intros Hc Hh. split; intros H.
  - apply seqsem_cons in H. destruct H as (u1 & u2 & -> & H1 & H2). apply seqsem1 in H2.
    apply Hh in H1. destruct H1 as [m H1]. exists (S m).
    constructor; [exact H1|apply symsem_usersym; assumption].
  - apply seqsem1 in H. exists 0. rewrite <- (app_nil_l u).
    constructor; [constructor|apply symsem_usersym; assumption].
Qed.

Lemma helper_prod_sound j k u : nth_error tbl j = Some k ->
  (seqsem (helper_rhs1 n tbl (n + 1 + j) k) u -> helper_sem k u) /\
  (seqsem (helper_rhs2 k) u -> helper_sem k u).
Proof.
  intros Hk. pose proof (nth_error_In _ _ Hk) as Hin.
  pose proof (tbl_kok _ Hin) as Hok.
  assert (Hsub : forall k', sub_key k = Some k' ->
            forall v, symsem (helper_nt n tbl k') v -> helper_sem k' v).
  { intros k' Sk v Hv. destruct (sub_helper _ _ Hin Sk) as (j' & Hn & E).
    rewrite E in Hv. eapply symsem_helper_inv; eauto. }
  assert (Hself : forall v, symsem (NT (n + 1 + j)) v -> helper_sem k v).
  { intros v. apply symsem_helper_inv. exact Hk. }
  destruct k as [[hk c] s]. destruct Hok as [Hc Hs].
  destruct hk; simpl in *.
  - (* x? *) split; intros H.
    + apply seqsem1 in H. right. apply symsem_usersym; assumption.
    + apply seqsem0 in H. auto.
  - (* x* *) apply star_rule_sound, (Hsub _ eq_refl).
  - (* x*! *) apply star_rule_sound, (Hsub _ eq_refl).
  - (* x+ *) apply (plus_rule_sound c _ u Hc Hself).
  - (* x+! *) apply (plus_rule_sound c _ u Hc Hself).
  - (* @list *) destruct Hs as [s' [-> Hs]]. split; intros H.
    + apply seqsem_cons in H. destruct H as (u1 & v & -> & H1 & H).
      apply seqsem_cons in H. destruct H as (u2 & u3 & -> & H2 & H3). apply seqsem1 in H3.
      apply Hself in H1. destruct H1 as [m H1]. exists (S m).
      constructor; [exact H1|apply symsem_usersym; assumption|apply symsem_usersym; assumption].
    + apply seqsem1 in H. exists 0. constructor. apply symsem_usersym; assumption.
  - (* @list? *) destruct Hs as [s' [-> Hs]]. split; intros H.
    + apply seqsem1 in H. apply (Hsub _ eq_refl) in H. simpl in H. auto.
    + apply seqsem0 in H. auto.
Qed.

Lemma sound_main :
  (forall X t u, wt G X t u -> symsem X u) /\
  (forall Xs ts us, wf G Xs ts us -> seqsem Xs us).
Proof.
  apply (wt_wf_ind G (fun X t u _ => symsem X u) (fun Xs ts us _ => seqsem Xs us)).
  - intros t i. constructor.
  - intros p pr ch u Hn _ IH. apply nth_error_In in Hn. apply in_G in Hn.
    destruct Hn as [->|[Hn|Hn]].
    + cbn [lhs rhs] in *. apply seqsem1 in IH. constructor.
      apply symsem_user_inv; [apply start_range|exact IH].
    + apply in_user_prods in Hn. destruct Hn as (r & rl & q & Hr & Hq & ->).
      cbn [lhs rhs] in *. assert (r < n) by (apply nth_error_Some; congruence).
      replace (0 + r + 1) with (S r) by lia. constructor; [lia|].
      apply sd_rule with rl q; [exact Hr|exact Hq|].
      apply prod_sound; [|exact IH]. intros x v. exact (term_sound _ _ x v (nth_error_In _ _ Hr) Hq).
    + apply In_nth_error in Hn. destruct Hn as [q Hq].
      apply helper_prods_at in Hq. destruct Hq as (j & k & Hj & Hpr).
      cbn [Nat.add] in Hpr. destruct (helper_prod_sound j k u Hj) as [S1 S2].
      destruct Hpr as [[_ ->]|[_ ->]]; cbn [lhs rhs] in *; apply ss_helper with k; auto.
  - constructor.
  - intros X t u Xs ts us _ H1 _ H2. constructor; assumption.
Qed.

Theorem normalize_sound_g w : sentence G w -> ssentence g w.
Proof.
  intros (X & t & HX & Ht). rewrite start_sym_G in HX. injection HX as <-.
  apply (proj1 sound_main) in Ht. apply symsem_user_inv; [apply start_range|exact Ht].
Qed.

Definition cov (x : sterm) : Prop := forall k, key_of x = Some k -> In k tbl.

Lemma helper_node1 j k ch u : nth_error tbl j = Some k ->
  wf G (helper_rhs1 n tbl (n + 1 + j) k) ch u -> exists t, wt G (NT (n + 1 + j)) t u.
Proof.
  intros Hk. apply node_in. apply in_G. right. right.
  apply nth_error_In with (2 * j). apply (nth_helper_prods n tbl tbl 0 j k Hk).
Qed.

Lemma helper_node2 j k ch u : nth_error tbl j = Some k ->
  wf G (helper_rhs2 k) ch u -> exists t, wt G (NT (n + 1 + j)) t u.
Proof.
  intros Hk. apply node_in. apply in_G. right. right.
  apply nth_error_In with (S (2 * j)). apply (nth_helper_prods n tbl tbl 0 j k Hk).
Qed.

Lemma tsym_sugar x k : key_of x = Some k -> In k tbl ->
  exists j, nth_error tbl j = Some k /\ tsym n tbl x = NT (n + 1 + j).
Proof. intros Kx Hin. unfold tsym. rewrite Kx. apply helper_nt_in, Hin. Qed.

(* The four motives of [complete_main] (term, production, m-fold repetition,
   m-fold separated list).  P3 speaks of both flavours [plus_of f] at once
   because the same repetition feeds the helper of x+ and that of x+!. *)
Definition P1 (x : sterm) (u : list token) : Prop :=
  wf_termb n x = true -> cov x -> exists t, wt G (tsym n tbl x) t u.
Definition P2 (p : list sterm) (u : list token) : Prop :=
  (forall x, In x p -> wf_termb n x = true /\ cov x) ->
  exists ts, wf G (map (tsym n tbl) p) ts u.
Definition P3 (c : sterm) (m : nat) (u : list token) : Prop :=
  simpleb n c = true ->
  (m = 0 -> u = []) /\
  (forall f j, nth_error tbl j = Some (plus_of f, sym_of c, None) ->
     1 <= m -> exists t, wt G (NT (n + 1 + j)) t u).
Definition P4 (e s : sterm) (m : nat) (u : list token) : Prop :=
  simpleb n e = true -> simpleb n s = true ->
  forall j, nth_error tbl j = Some (HList, sym_of e, Some (sym_of s)) ->
  exists t, wt G (NT (n + 1 + j)) t u.

Lemma P1_simple c u : P1 c u -> simpleb n c = true -> exists t, wt G (sym_of c) t u.
Proof.
  intros H Hc. destruct c; try discriminate; apply H; try exact Hc; intros k; discriminate.
Qed.

Lemma star_complete f c m u :
  simpleb n c = true -> P3 c m u -> In (star_of f, sym_of c, None) tbl ->
  exists t, wt G (helper_nt n tbl (star_of f, sym_of c, None)) t u.
Proof.
  intros Hc IH Hin. destruct (IH Hc) as [H0 HS].
  destruct (helper_nt_in n _ _ Hin) as (j & Hn & ->).
  destruct m as [|m].
  - rewrite (H0 eq_refl). apply (helper_node2 j _ [] [] Hn). destruct f; constructor.
  - destruct (sub_helper _ (plus_of f, sym_of c, None) Hin) as (j' & Hn' & E);
      [destruct f; reflexivity|].
    destruct (HS f j' Hn') as [t' Ht']; [lia|].
    apply (helper_node1 j _ [t'] u Hn).
    replace (helper_rhs1 n tbl (n + 1 + j) (star_of f, sym_of c, None)) with [NT (n + 1 + j')]
      by (rewrite <- E; destruct f; reflexivity).
    apply wf_1, Ht'.
Qed.

Lemma complete_main :
  (forall x u, sderives g x u -> P1 x u) /\
  (forall p u, sprod g p u -> P2 p u) /\
  (forall c m u, srep g c m u -> P3 c m u) /\
  (forall e s m u, sreplist g e s m u -> P4 e s m u).
Proof.
  apply (sderives_mutind g P1 P2 P3 P4).
  - (* token *) intros t i _ _. exists (Leaf (t, i)). constructor.
  - (* @error *) intros i _ _. exists (Leaf (error_t, i)). constructor.
  - (* rule *) intros r rl p u Hr Hp _ IH _ _.
    pose proof (nth_error_In _ _ Hr) as Hrl.
    destruct IH as [ts Hts].
    { intros x Hx. split; [eapply terms_wf; eauto|].
      intros k Kx. eapply tbl_covers; eauto. }
    cbn [tsym key_of sym_of]. apply node_in with (map (tsym n tbl) p) ts; [|exact Hts].
    apply in_G. right. left.
    replace (S r) with (0 + r + 1) by lia. apply in_user_prods. exists r, rl, p. auto.
  - (* c? none *) intros c _ Hcov.
    destruct (tsym_sugar (SCard KOpt c) _ eq_refl (Hcov _ eq_refl)) as (j & Hn & ->).
    apply (helper_node2 j _ [] [] Hn). constructor.
  - (* c? some *) intros c u _ IH Hw Hcov. cbn [wf_termb] in Hw.
    destruct (P1_simple _ _ IH Hw) as [t Ht].
    destruct (tsym_sugar (SCard KOpt c) _ eq_refl (Hcov _ eq_refl)) as (j & Hn & ->).
    apply (helper_node1 j _ [t] u Hn). apply wf_1, Ht.
  - (* c* *) intros c m u _ IH Hw Hcov.
    exact (star_complete false c m u Hw IH (Hcov _ eq_refl)).
  - (* c*! *) intros c m u _ IH Hw Hcov.
    exact (star_complete true c m u Hw IH (Hcov _ eq_refl)).
  - (* c+ *) intros c m u _ IH Hw Hcov. cbn [wf_termb] in Hw.
    destruct (tsym_sugar (SCard KPlus c) _ eq_refl (Hcov _ eq_refl)) as (j & Hn & ->).
    apply (proj2 (IH Hw) false j Hn). lia.
  - (* @list, @list? some *) intros e s o m u _ IH Hw Hcov. cbn [wf_termb] in Hw.
    apply andb_true_iff in Hw. destruct Hw as [He Hs].
    apply list_argb_simpleb in He. apply list_argb_simpleb in Hs.
    destruct o.
    + pose proof (Hcov _ eq_refl) as Hin.
      destruct (tsym_sugar (SList e s true) _ eq_refl Hin) as (j & Hn & ->).
      destruct (sub_helper _ _ Hin eq_refl) as (j' & Hn' & E).
      destruct (IH He Hs j' Hn') as [t' Ht'].
      apply (helper_node1 j _ [t'] u Hn). cbn [helper_rhs1]. rewrite E. apply wf_1, Ht'.
    + destruct (tsym_sugar (SList e s false) _ eq_refl (Hcov _ eq_refl)) as (j & Hn & ->).
      exact (IH He Hs j Hn).
  - (* @list? none *) intros e s _ Hcov.
    destruct (tsym_sugar (SList e s true) _ eq_refl (Hcov _ eq_refl)) as (j & Hn & ->).
    apply (helper_node2 j _ [] [] Hn). constructor.
  - (* production: nil *) intros _. exists []. constructor.
  - (* production: cons *) intros x xs u v _ IHx _ IHxs Hall.
    destruct (Hall x (or_introl eq_refl)) as [Hw Hcov].
    destruct (IHx Hw Hcov) as [t Ht].
    destruct IHxs as [ts Hts]; [intros y Hy; apply Hall; right; exact Hy|].
    exists (t :: ts). cbn [map]. constructor; assumption.
  - (* repetition: zero *) intros c _. split; [reflexivity|]. intros f j _ H. lia.
  - (* repetition: more *) intros c m u v _ IH _ IHc Hc.
    split; [discriminate|]. intros f j Hn _.
    destruct (P1_simple _ _ IHc Hc) as [tc Htc].
    destruct (IH Hc) as [H0 HS]. destruct m as [|m].
    + rewrite (H0 eq_refl). cbn [app].
      apply (helper_node2 j _ [tc] v Hn). destruct f; apply wf_1, Htc.
    + destruct (HS f j Hn) as [t1 Ht1]; [lia|].
      apply (helper_node1 j _ [t1; tc] (u ++ v) Hn). destruct f; apply wf_2; assumption.
  - (* list: one *) intros e s u _ IHe He Hs j Hn.
    destruct (P1_simple _ _ IHe He) as [te Hte].
    apply (helper_node2 j _ [te] u Hn). apply wf_1, Hte.
  - (* list: more *) intros e s m u v w _ IH _ IHs _ IHe He Hs j Hn.
    destruct (P1_simple _ _ IHe He) as [te Hte].
    destruct (P1_simple _ _ IHs Hs) as [ts Hts].
    destruct (IH He Hs j Hn) as [t1 Ht1].
    apply (helper_node1 j _ [t1; ts; te] (u ++ v ++ w) Hn).
    constructor; [exact Ht1|apply wf_2; assumption].
Qed.

Theorem normalize_complete_g w : ssentence g w -> sentence G w.
Proof.
  intros H. apply (proj1 complete_main) in H.
  destruct H as [t Ht].
  - unfold wf_termb, simpleb. pose proof start_range as R.
    apply andb_true_iff. rewrite !Nat.leb_le. exact R.
  - intros k. discriminate.
  - exists (NT (sg_start g)), t. split; [apply start_sym_G|exact Ht].
Qed.

Lemma nth_G_helper q :
  nth_error G (1 + nuser g + q) = nth_error (helper_prods n tbl 0 tbl) q.
Proof.
  unfold build, nuser. cbn [Nat.add nth_error].
  rewrite nth_error_app2; rewrite user_prods_length; [f_equal; lia|lia].
Qed.

Lemma helper_lhs_unique j p pr :
  nth_error G p = Some pr -> lhs pr = n + 1 + j ->
  p = 1 + nuser g + 2 * j \/ p = S (1 + nuser g + 2 * j).
Proof.
  intros Hp Hl. destruct p as [|q].
  - unfold build in Hp. cbn [nth_error] in Hp. injection Hp as <-. cbn [lhs] in Hl. lia.
  - destruct (lt_dec q (nuser g)) as [Hq|Hq].
    + exfalso. unfold build in Hp. cbn [nth_error] in Hp.
      rewrite nth_error_app1 in Hp by (rewrite user_prods_length; exact Hq).
      apply nth_error_In, in_user_prods in Hp. destruct Hp as (r & rl & q' & Hr & _ & ->).
      cbn [lhs] in Hl. assert (r < n) by (apply nth_error_Some; congruence). lia.
    + replace (S q) with (1 + nuser g + (q - nuser g)) in Hp by lia. rewrite nth_G_helper in Hp.
      apply helper_prods_at in Hp.
      destruct Hp as (j' & k & _ & [[Hq' ->]|[Hq' ->]]); cbn [lhs] in Hl; lia.
Qed.

Lemma helper_shape j k : nth_error tbl j = Some k ->
  shape n tbl (n + 1 + j) k (helper_rhs1 n tbl (n + 1 + j) k) (helper_rhs2 k).
Proof.
  intros Hk. pose proof (nth_error_In _ _ Hk) as Hin. pose proof (tbl_kok _ Hin) as Hok.
  pose proof (sub_helper k) as Hsub.
  destruct k as [[hk c] s]. destruct Hok as [Hc Hs].
  destruct hk; cbn [shape helper_rhs1 helper_rhs2]; auto.
  - destruct (Hsub _ Hin eq_refl) as (j' & Hn & ->). eauto.
  - destruct (Hsub _ Hin eq_refl) as (j' & Hn & ->). eauto.
  - destruct Hs as [s' [-> _]]. eauto.
  - destruct (Hsub _ Hin eq_refl) as (j' & Hn & ->). eauto.
Qed.

End Main.

Theorem normalize_sound : forall g w,
  wf_sgrammar g -> sentence (fst (normalize g)) w -> ssentence g w.
Proof. intros g w Hwf. apply normalize_sound_g. exact Hwf. Qed.

Theorem normalize_complete : forall g w,
  wf_sgrammar g -> ssentence g w -> sentence (fst (normalize g)) w.
Proof. intros g w Hwf. apply normalize_complete_g. exact Hwf. Qed.

Theorem helper_shapes : forall g j k,
  wf_sgrammar g -> nth_error (collect g) j = Some k ->
  let n := length (sg_rules g) in
  let h := n + 1 + j in
  let p1 := 1 + nuser g + 2 * j in
  let G := fst (normalize g) in
  nth_error (snd (normalize g)) j = Some (h, key_kind k) /\
  exists r1 r2,
    nth_error G p1 = Some {| lhs := h; rhs := r1 |} /\
    nth_error G (S p1) = Some {| lhs := h; rhs := r2 |} /\
    (forall p pr, nth_error G p = Some pr -> lhs pr = h -> p = p1 \/ p = S p1) /\
    shape n (collect g) h k r1 r2.
Proof.
  intros g j k Hwf Hk n h p1 G. split.
  - unfold normalize. cbn [snd]. apply nth_error_kinds. exact Hk.
  - exists (helper_rhs1 n (collect g) h k), (helper_rhs2 k).
    destruct (nth_helper_prods n (collect g) (collect g) 0 j k Hk) as [H1 H2].
    cbn [Nat.add] in H1, H2. subst G p1. unfold normalize. cbn [fst].
    repeat split.
    + rewrite nth_G_helper. exact H1.
    + replace (S (1 + nuser g + 2 * j)) with (1 + nuser g + S (2 * j)) by lia.
      rewrite nth_G_helper. exact H2.
    + intros p pr. apply helper_lhs_unique.
    + apply helper_shape; assumption.
Qed.

Theorem normalize_length : forall g,
  length (fst (normalize g)) = 1 + nuser g + 2 * length (collect g).
Proof.
  intros g. unfold normalize, build, nuser. cbn [fst length].
  rewrite app_length, user_prods_length, helper_prods_length. lia.
Qed.

(* the kind the runtime's _act uses for the productions of a helper
   (codegen.RuleGenerated on the helper's name; "@list(x,s)?" ends in '?') *)
Definition hk_rkind (k : helper_kind) : rkind :=
  match k with
  | HOpt | HListOpt => KZeroOrOne
  | HStar | HStarF => KZeroOrMore
  | HPlus => KOneOrMore
  | HPlusF => KOneOrMoreF
  | HList => KList
  end.

(* every tree of an x+ / x+! helper is a spine over its two productions whose
   elements are trees of x: the shape Sugar.plus_value / plus_f_value speak of *)
Theorem plus_helper_spine : forall g j hk c s,
  wf_sgrammar g -> nth_error (collect g) j = Some (hk, c, s) -> hk = HPlus \/ hk = HPlusF ->
  let G := fst (normalize g) in
  let h := length (sg_rules g) + 1 + j in
  let p1 := 1 + nuser g + 2 * j in
  forall t u, wt G (NT h) t u ->
  exists elems, spine p1 (S p1) elems t /\ Forall (fun e => exists v, wt G c e v) elems.
Proof.
  intros g j hk c s Hwf Hk Hhk G h p1.
  destruct (helper_shapes g j _ Hwf Hk) as (_ & r1 & r2 & Hp1 & Hp2 & Huniq & Hsh).
  fold G h p1 in Hp1, Hp2, Huniq, Hsh.
  assert (Hr : r1 = [NT h; c] /\ r2 = [c]) by (destruct Hhk as [-> | ->]; exact Hsh).
  destruct Hr as [-> ->].
  apply (left_rec_ind G h p1 (S p1) [c] [c]); auto.
  - intros t' ts u (elems & Hsp & Hall) H.
    apply wf_cons_inv in H. destruct H as (e & ts' & u1 & u2 & -> & -> & He & H).
    apply wf_nil_inv in H. destruct H as [-> ->].
    exists (elems ++ [e]). split; [constructor; exact Hsp|]. apply Forall_app. eauto.
  - intros ts u H.
    apply wf_cons_inv in H. destruct H as (e & ts' & u1 & u2 & -> & -> & He & H).
    apply wf_nil_inv in H. destruct H as [-> ->].
    exists [e]. split; [constructor|eauto].
Qed.

(* every tree of an @list(x,s) helper is a separated spine: the shape of Sugar.list_value *)
Theorem list_helper_spine : forall g j c s,
  wf_sgrammar g -> nth_error (collect g) j = Some (HList, c, s) ->
  let G := fst (normalize g) in
  let h := length (sg_rules g) + 1 + j in
  let p1 := 1 + nuser g + 2 * j in
  forall t u, wt G (NT h) t u ->
  exists elems all, spine_sep p1 (S p1) elems all t /\
    Forall (fun e => exists v, wt G c e v) elems.
Proof.
  intros g j c s Hwf Hk G h p1.
  destruct (helper_shapes g j _ Hwf Hk) as (_ & r1 & r2 & Hp1 & Hp2 & Huniq & Hsh).
  fold G h p1 in Hp1, Hp2, Huniq, Hsh.
  destruct Hsh as (s' & -> & -> & ->).
  apply (left_rec_ind G h p1 (S p1) [s'; c] [c]); auto.
  - intros t' ts u (elems & all & Hsp & Hall) H.
    apply wf_cons_inv in H. destruct H as (sep & ts1 & u1 & u2 & -> & -> & _ & H).
    apply wf_cons_inv in H. destruct H as (e & ts2 & u3 & u4 & -> & -> & He & H).
    apply wf_nil_inv in H. destruct H as [-> ->].
    exists (elems ++ [e]), (all ++ [sep; e]). split; [constructor; exact Hsp|].
    apply Forall_app. eauto.
  - intros ts u H.
    apply wf_cons_inv in H. destruct H as (e & ts' & u1 & u2 & -> & -> & He & H).
    apply wf_nil_inv in H. destruct H as [-> ->].
    exists [e], [e]. split; [constructor|eauto].
Qed.

(* terminals: 0 EOF, 1 ERROR, 2 A, 3 B, 4 C; rules: 1 s, 2 a
     @start s = a* B | @list(a, C)?
     a = A+ A?
   lox: rules 3 "a*", 4 "a+", 5 "@list(a,C)?", 6 "@list(a,C)", 7 "A+", 8 "A?":
   a starred helper is numbered before the plus helper it creates *)
Definition ex1 : sgrammar :=
  {| sg_rules :=
       [ [ [SCard KStar (SRule 2); STok 3]; [SList (SRule 2) (STok 4) true] ];
         [ [SCard KPlus (STok 2); SCard KOpt (STok 2)] ] ];
     sg_start := 1 |}.

Example ex1_wf : wf_sgrammarb ex1 = true.
Proof. vm_compute. reflexivity. Qed.

Example ex1_normalize :
  normalize ex1 =
  ([ {| lhs := 0; rhs := [NT 1] |};
     {| lhs := 1; rhs := [NT 3; T 3] |};          (* s = a* B *)
     {| lhs := 1; rhs := [NT 5] |};               (*   | @list(a,C)? *)
     {| lhs := 2; rhs := [NT 7; NT 8] |};         (* a = A+ A? *)
     {| lhs := 3; rhs := [NT 4] |};               (* a* = a+ *)
     {| lhs := 3; rhs := [] |};                   (*    | empty *)
     {| lhs := 4; rhs := [NT 4; NT 2] |};         (* a+ = a+ a *)
     {| lhs := 4; rhs := [NT 2] |};               (*    | a *)
     {| lhs := 5; rhs := [NT 6] |};               (* @list(a,C)? = @list(a,C) *)
     {| lhs := 5; rhs := [] |};                   (*    | empty *)
     {| lhs := 6; rhs := [NT 6; T 4; NT 2] |};    (* @list(a,C) = @list(a,C) C a *)
     {| lhs := 6; rhs := [NT 2] |};               (*    | a *)
     {| lhs := 7; rhs := [NT 7; T 2] |};          (* A+ = A+ A *)
     {| lhs := 7; rhs := [T 2] |};                (*    | A *)
     {| lhs := 8; rhs := [T 2] |};                (* A? = A *)
     {| lhs := 8; rhs := [] |} ],                 (*    | empty *)
   [ (3, HStar); (4, HPlus); (5, HListOpt); (6, HList); (7, HPlus); (8, HOpt) ]).
Proof. vm_compute. reflexivity. Qed.

(* reuse: the same sugar twice, in two rules, and t+ after t* (the t+ helper that
   t* created is reused); t*! and t+! are helpers of their own
     @start s = 'a'* A+ 'b'? t*! t+
     t = B A* B?
   lox: 3 "A*", 4 "A+", 5 "B?", 6 "t*!", 7 "t+!", 8 "t+" *)
Definition ex2 : sgrammar :=
  {| sg_rules :=
       [ [ [SCard KStar (STok 2); SCard KPlus (STok 2); SCard KOpt (STok 3);
            SCard KStarF (SRule 2); SCard KPlus (SRule 2)] ];
         [ [STok 3; SCard KStar (STok 2); SCard KOpt (STok 3)] ] ];
     sg_start := 1 |}.

Example ex2_normalize :
  normalize ex2 =
  ([ {| lhs := 0; rhs := [NT 1] |};
     {| lhs := 1; rhs := [NT 3; NT 4; NT 5; NT 6; NT 8] |};
     {| lhs := 2; rhs := [T 3; NT 3; NT 5] |};
     {| lhs := 3; rhs := [NT 4] |};       {| lhs := 3; rhs := [] |};
     {| lhs := 4; rhs := [NT 4; T 2] |};  {| lhs := 4; rhs := [T 2] |};
     {| lhs := 5; rhs := [T 3] |};        {| lhs := 5; rhs := [] |};
     {| lhs := 6; rhs := [NT 7] |};       {| lhs := 6; rhs := [] |};
     {| lhs := 7; rhs := [NT 7; NT 2] |}; {| lhs := 7; rhs := [NT 2] |};
     {| lhs := 8; rhs := [NT 8; NT 2] |}; {| lhs := 8; rhs := [NT 2] |} ],
   [ (3, HStar); (4, HPlus); (5, HOpt); (6, HStarF); (7, HPlusF); (8, HPlus) ]).
Proof. vm_compute. reflexivity. Qed.

(* the other order: x+ first, then x*: the plus helper has the smaller number;
   @list(x,s) before @list(x,s)? likewise
     @start s = A+ A* @list(A, B) @list(A, B)? @error? *)
Definition ex3 : sgrammar :=
  {| sg_rules :=
       [ [ [SCard KPlus (STok 2); SCard KStar (STok 2); SList (STok 2) (STok 3) false;
            SList (STok 2) (STok 3) true; SCard KOpt SErr] ] ];
     sg_start := 1 |}.

Example ex3_normalize :
  normalize ex3 =
  ([ {| lhs := 0; rhs := [NT 1] |};
     {| lhs := 1; rhs := [NT 2; NT 3; NT 4; NT 5; NT 6] |};
     {| lhs := 2; rhs := [NT 2; T 2] |};       {| lhs := 2; rhs := [T 2] |};
     {| lhs := 3; rhs := [NT 2] |};            {| lhs := 3; rhs := [] |};
     {| lhs := 4; rhs := [NT 4; T 3; T 2] |};  {| lhs := 4; rhs := [T 2] |};
     {| lhs := 5; rhs := [NT 4] |};            {| lhs := 5; rhs := [] |};
     {| lhs := 6; rhs := [T 1] |};             {| lhs := 6; rhs := [] |} ],
   [ (2, HPlus); (3, HStar); (4, HList); (5, HListOpt); (6, HOpt) ]).
Proof. vm_compute. reflexivity. Qed.

(* a sentence of ex1, both ways:  A A B  =  a a B  with a = A and a = A *)
Example ex1_sentence : ssentence ex1 [(2, 0); (2, 1); (3, 2)].
Proof.
  assert (Ha : forall i, sderives ex1 (SRule 2) [(2, i)]).
  { intros i. eapply sd_rule; [reflexivity|left; reflexivity|].
    apply (sp_cons ex1 _ _ [(2, i)] []).
    - apply sd_plus with 0. apply (sr_more ex1 _ 0 [] [(2, i)]); constructor.
    - apply (sp_cons ex1 _ _ [] []); [apply sd_opt_none|constructor]. }
  eapply sd_rule; [reflexivity|left; reflexivity|].
  apply (sp_cons ex1 _ _ [(2, 0); (2, 1)] [(3, 2)]).
  - apply sd_star with 2. apply (sr_more ex1 _ 1 [(2, 0)] [(2, 1)]); [|apply Ha].
    apply (sr_more ex1 _ 0 [] [(2, 0)]); [constructor|apply Ha].
  - apply (sp_cons ex1 _ _ [(3, 2)] []); constructor.
Qed.

Example ex1_sentence_plain : sentence (fst (normalize ex1)) [(2, 0); (2, 1); (3, 2)].
Proof. apply normalize_complete; [reflexivity|exact ex1_sentence]. Qed.

Print Assumptions normalize_sound.
Print Assumptions normalize_complete.
Print Assumptions helper_shapes.
Print Assumptions normalize_length.
Print Assumptions plus_helper_spine.
Print Assumptions list_helper_spine.
Print Assumptions ex1_normalize.
Print Assumptions ex2_normalize.
Print Assumptions ex3_normalize.
Print Assumptions ex1_sentence_plain.
