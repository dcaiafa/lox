(* Theorems about Binding.v (property C06): the declarative typing has_type and
   its agreement with derive, the clause each user production satisfies
   (prod_clause_exact), what every diagnostic names (culprit_ok), the value
   flow of `_cast`, and two concrete grammars. *)
From Coq Require Import List String Arith Bool Lia.
From Lox Require Import Base.ListFacts Gen.Binding Gen.BindingLists.
Import ListNotations.

Section Proofs.
Variable o : oracle.
Variables tok err : ty.
Variable rules : list brule.
Variable prods : list bprod.
Variable ms : list meth.

Notation acts := (actions ms).
Notation red := (reduce_type o tok err rules prods).
Notation reduce2 := (reduce_type o tok err rules prods reduce_fuel).
Notation pass' := (pass o tok err rules prods).

Definition term_has_ty (rtl : list (nat * ty)) (t : bool * nat) (s : ty) : Prop :=
  if fst t then s = terminal_ty tok err (snd t) else In (snd t, s) rtl.

(* matchMethod's test, as a proposition *)
Definition accepts (rtl : list (nat * ty)) (m : meth) (p : bprod) : Prop :=
  Forall2 (fun q t => exists s, term_has_ty rtl t s /\ assignable o s q = true)
          (m_params m) (bp_terms p).

Lemma rule_types_in : forall rt i t,
  In (i, t) (rule_types_of rules rt) <-> (i < List.length rules /\ rt_get rt i = IT t).
Proof.
  intros rt i t. unfold rule_types_of. rewrite in_flat_map. split.
  - intros [[j r] [Hin H]]. simpl in H.
    destruct (rt_get rt j) eqn:E; simpl in H; try contradiction.
    destruct H as [H|[]]. inversion H; subst. split; auto.
    apply in_indexed in Hin. apply nth_error_Some. congruence.
  - intros [Hlt E]. destruct (nth_error rules i) as [r|] eqn:En.
    + exists (i, r). split; [apply in_indexed; auto|]. simpl. rewrite E. simpl. auto.
    + apply nth_error_None in En. lia.
Qed.

Lemma term_ity_has_ty : forall rt t s,
  wf_term rules t = true ->
  (term_ity tok err rt t = IT s <-> term_has_ty (rule_types_of rules rt) t s).
Proof.
  intros rt [b i] s Hwf. unfold term_ity, term_has_ty, wf_term in *. simpl in *.
  destruct b; simpl in *.
  - split; intros H; congruence.
  - rewrite rule_types_in. apply andb_prop in Hwf. destruct Hwf as [Hlt _].
    apply Nat.ltb_lt in Hlt. tauto.
Qed.

Lemma params_match_iff : forall rt params terms,
  forallb (wf_term rules) terms = true ->
  (params_match o tok err rt params terms = true <->
   Forall2 (fun q t => exists s, term_has_ty (rule_types_of rules rt) t s /\
                                 assignable o s q = true) params terms).
Proof.
  induction params as [|q params IH]; intros [|t terms] Hwf; simpl.
  - split; auto.
  - split; [discriminate|]. intros H; inversion H.
  - split; [discriminate|]. intros H; inversion H.
  - simpl in Hwf. apply andb_prop in Hwf. destruct Hwf as [Hw1 Hw2]. split.
    + intros H. destruct (term_ity tok err rt t) as [|s|] eqn:E; try discriminate.
      apply andb_prop in H. destruct H as [Ha Hm]. constructor.
      * exists s. split; auto. apply term_ity_has_ty; auto.
      * apply IH; auto.
    + intros H. inversion H; subst. destruct H3 as [s [Hs Ha]].
      apply term_ity_has_ty in Hs; auto. rewrite Hs, Ha. simpl. apply IH; auto.
Qed.

Lemma wf_input_inv :
  wf_input rules prods ms = true ->
  forallb (wf_prod rules) prods = true /\ forallb (wf_rule prods) (indexed rules) = true /\
  NoDup (map br_name rules) /\ NoDup (map m_id ms).
Proof.
  unfold wf_input. intros H.
  apply andb_prop in H. destruct H as [H Hi]. apply andb_prop in H. destruct H as [H Hn].
  apply andb_prop in H. destruct H as [Hp Hr].
  auto using nodup_strb_sound, nodup_natb_sound.
Qed.

Lemma wf_prod_in : forall p,
  wf_input rules prods ms = true -> In p prods ->
  bp_rule p < List.length rules /\ forallb (wf_term rules) (bp_terms p) = true.
Proof.
  intros p Hwf Hin. destruct (wf_input_inv Hwf) as [Hp _].
  rewrite forallb_forall in Hp. apply Hp in Hin. unfold wf_prod in Hin.
  apply andb_prop in Hin. destruct Hin as [Ha Hb]. apply Nat.ltb_lt in Ha. auto.
Qed.

Lemma wf_names : wf_input rules prods ms = true -> NoDup (map br_name rules).
Proof. intros Hwf. apply (wf_input_inv Hwf). Qed.

Lemma wf_ids : wf_input rules prods ms = true -> NoDup (map m_id ms).
Proof. intros Hwf. apply (wf_input_inv Hwf). Qed.

Lemma is_match_iff : forall rt p m,
  wf_input rules prods ms = true -> In p prods ->
  (is_match o tok err rt p m = true <-> accepts (rule_types_of rules rt) m p).
Proof.
  intros rt p m Hwf Hin. unfold is_match, accepts.
  apply params_match_iff. apply wf_prod_in; auto.
Qed.

Lemma in_actions : forall m, In m acts <-> In m ms /\ is_action m = true.
Proof. intros m. unfold actions. apply filter_In. Qed.

Lemma in_group_iff : forall r m,
  In m (group acts r) <-> In m ms /\ rule_of m = Some r.
Proof.
  intros r m. unfold group. rewrite filter_In, in_actions. unfold in_group, is_action.
  destruct (rule_of m) as [r'|] eqn:E.
  - split.
    + intros [[H1 _] H2]. apply String.eqb_eq in H2. subst. auto.
    + intros [H1 H2]. inversion H2; subst. rewrite String.eqb_refl. auto.
  - split; [intros [_ H]; discriminate | intros [_ H]; discriminate].
Qed.

Lemma in_group_names : forall r,
  In r (group_names acts) <-> exists m, In m ms /\ rule_of m = Some r.
Proof.
  intros r. unfold group_names. rewrite nodup_In, in_flat_map. split.
  - intros [m [Hm H]]. destruct (rule_of m) as [r'|] eqn:E; simpl in H; [|contradiction].
    destruct H as [<-|[]]. exists m. apply in_actions in Hm. tauto.
  - intros [m [Hm E]]. exists m. split.
    + apply in_actions. split; auto. unfold is_action. rewrite E. auto.
    + rewrite E. simpl. auto.
Qed.

Lemma in_user_prods : forall pi p,
  In (pi, p) (user_prods rules prods) <->
  nth_error prods pi = Some p /\ kind_of rules (bp_rule p) = NotGenerated.
Proof.
  intros pi p. unfold user_prods. rewrite filter_In, in_indexed. unfold user_prod. simpl.
  rewrite is_user_true. tauto.
Qed.

Definition rt_final (rt : rtypes) : Prop :=
  phase0_errs ms = [] /\
  phase1_errs o rules acts = [] /\
  derive o tok err rules prods (derive_fuel rules) (phase1_types o rules acts) = DvOk rt /\
  missing_rules rules rt = [].

(* every phase of assign_actions_wf has this shape: stop with the sorted
   diagnostics of the phase, or go on *)
Definition guard (e : list bdiag) (k : result) : result :=
  match e with [] => k | _ :: _ => BErr (sort_diags e) end.

Lemma assign_actions_wf_guard :
  assign_actions_wf o tok err rules prods ms =
  guard (phase0_errs ms) (guard (phase1_errs o rules acts)
    match derive o tok err rules prods (derive_fuel rules) (phase1_types o rules acts) with
    | DvPanic s => BPanic s
    | DvFuel => BFuel
    | DvOk rt =>
      guard (missing_rules rules rt)
        (if phase4_panics o tok err rules prods rt acts then BPanic PAssertReturn else
         guard (phase4_errs o tok err rules prods rt acts)
           (guard (unassigned acts (phase4_binding o tok err rules prods rt acts))
              (BOk (phase4_binding o tok err rules prods rt acts) (rule_types_of rules rt))))
    end).
Proof.
  unfold assign_actions_wf, guard.
  destruct (phase0_errs ms); [|reflexivity].
  destruct (phase1_errs o rules acts); [|reflexivity].
  destruct (derive o tok err rules prods (derive_fuel rules) (phase1_types o rules acts)); try reflexivity.
  destruct (missing_rules rules rt); [|reflexivity].
  destruct (phase4_panics o tok err rules prods rt acts); [reflexivity|].
  destruct (phase4_errs o tok err rules prods rt acts); [|reflexivity].
  destruct (unassigned acts (phase4_binding o tok err rules prods rt acts)); reflexivity.
Qed.

Lemma guard_ok : forall e k b r, guard e k = BOk b r -> e = [] /\ k = BOk b r.
Proof. intros [|d e] k b r H; [auto|discriminate]. Qed.

Definition settled_result (r : result) : Prop :=
  (exists b rtl, r = BOk b rtl) \/ (exists ds, r = BErr ds).

Lemma guard_settled : forall e k, (e = [] -> settled_result k) -> settled_result (guard e k).
Proof. intros [|d e] k H; [exact (H eq_refl)|]. right. eexists. reflexivity. Qed.

Lemma assign_ok_inv : forall b rtl,
  assign_actions o tok err rules prods ms = BOk b rtl ->
  wf_input rules prods ms = true /\
  exists rt, rt_final rt /\
    phase4_panics o tok err rules prods rt acts = false /\
    phase4_errs o tok err rules prods rt acts = [] /\
    unassigned acts (phase4_binding o tok err rules prods rt acts) = [] /\
    b = phase4_binding o tok err rules prods rt acts /\
    rtl = rule_types_of rules rt.
Proof.
  intros b rtl H. unfold assign_actions in H.
  destruct (wf_input rules prods ms) eqn:Hwf; [|discriminate]. split; auto.
  rewrite assign_actions_wf_guard in H.
  apply guard_ok in H. destruct H as [E0 H].
  apply guard_ok in H. destruct H as [E1 H].
  destruct (derive o tok err rules prods (derive_fuel rules) (phase1_types o rules acts))
    as [s| |rt] eqn:Ed; try discriminate.
  apply guard_ok in H. destruct H as [E3 H].
  destruct (phase4_panics o tok err rules prods rt acts) eqn:Ep; [discriminate|].
  apply guard_ok in H. destruct H as [E4 H].
  apply guard_ok in H. destruct H as [E5 H].
  inversion H. exists rt. unfold rt_final. auto 10.
Qed.

Lemma assign_ok_intro : forall rt,
  wf_input rules prods ms = true -> rt_final rt ->
  phase4_panics o tok err rules prods rt acts = false ->
  phase4_errs o tok err rules prods rt acts = [] ->
  unassigned acts (phase4_binding o tok err rules prods rt acts) = [] ->
  assign_actions o tok err rules prods ms =
  BOk (phase4_binding o tok err rules prods rt acts) (rule_types_of rules rt).
Proof.
  intros rt Hwf [H0 [H1 [Hd Hm]]] Hp H4 H5. unfold assign_actions.
  rewrite Hwf, assign_actions_wf_guard, H0, H1, Hd, Hm, Hp, H4, H5. reflexivity.
Qed.

(* the types of rules, declaratively.  has_type i t: rule i has Go type t
   - from an action method: the result type of the first method of its name;
   - `c?`: the type of c (a terminal has getTermGoType: error type for
     ERROR, Token otherwise);
   - `c+`, `c+!`, `@list(c,s)`: slice of the type of c (second production);
   - `c*`, `c*!`: the type of its `c+` rule. *)

Definition is_plus (k : rkind') : Prop := k = OneOrMore \/ k = OneOrMoreF \/ k = ListK.
Definition is_star (k : rkind') : Prop := k = ZeroOrMore \/ k = ZeroOrMoreF.

(* the last premise of HT_opt, HT_plus and HT_star below is
   elem_type has_type x t, written out *)
Definition elem_type (ht : nat -> ty -> Prop) (x : bool * nat) (t : ty) : Prop :=
  (fst x = true /\ t = terminal_ty tok err (snd x)) \/ (fst x = false /\ ht (snd x) t).

Inductive has_type : nat -> ty -> Prop :=
| HT_meth : forall i r f others,
    nth_error rules i = Some r -> group acts (br_name r) = f :: others ->
    has_type i (ret f)
| HT_opt : forall i r p0 rest p x xs t,
    nth_error rules i = Some r -> br_kind r = ZeroOrOne ->
    br_prods r = p0 :: rest -> nth_error prods p0 = Some p -> bp_terms p = x :: xs ->
    ((fst x = true /\ t = terminal_ty tok err (snd x)) \/ (fst x = false /\ has_type (snd x) t)) ->
    has_type i t
| HT_plus : forall i r q p1 rest p x xs t,
    nth_error rules i = Some r -> is_plus (br_kind r) ->
    br_prods r = q :: p1 :: rest -> nth_error prods p1 = Some p -> bp_terms p = x :: xs ->
    ((fst x = true /\ t = terminal_ty tok err (snd x)) \/ (fst x = false /\ has_type (snd x) t)) ->
    has_type i (slice_of o t)
| HT_star : forall i r p0 rest p c xs rc q p1 rest' pc x xs' t,
    nth_error rules i = Some r -> is_star (br_kind r) ->
    br_prods r = p0 :: rest -> nth_error prods p0 = Some p -> bp_terms p = (false, c) :: xs ->
    nth_error rules c = Some rc -> is_plus (br_kind rc) ->
    br_prods rc = q :: p1 :: rest' -> nth_error prods p1 = Some pc -> bp_terms pc = x :: xs' ->
    ((fst x = true /\ t = terminal_ty tok err (snd x)) \/ (fst x = false /\ has_type (snd x) t)) ->
    has_type i (slice_of o t).

Definition rt_sound (rt : rtypes) : Prop := forall i t, rt_get rt i = IT t -> has_type i t.

Lemma list_nat_eqb_eq : forall a b, list_nat_eqb a b = true -> a = b.
Proof.
  induction a as [|x a IH]; destruct b as [|y b]; simpl; intros H; try discriminate; auto.
  apply andb_prop in H. destruct H as [H1 H2]. apply Nat.eqb_eq in H1. f_equal; auto.
Qed.

Lemma wf_rule_in : forall i r,
  wf_input rules prods ms = true -> nth_error rules i = Some r ->
  br_prods r = prods_of prods i.
Proof.
  intros i r Hwf Hn. destruct (wf_input_inv Hwf) as [_ [Hr _]].
  rewrite forallb_forall in Hr. apply in_indexed in Hn. apply Hr in Hn.
  unfold wf_rule in Hn. simpl in Hn. apply andb_prop in Hn. destruct Hn as [Ha Hb].
  apply list_nat_eqb_eq; auto.
Qed.

Lemma prods_of_nodup : forall i, NoDup (prods_of prods i).
Proof. intros. unfold prods_of. apply nodup_map_filter. apply indexed_nodup. Qed.

Lemma in_prods_of : forall i pi,
  In pi (prods_of prods i) <-> exists p, nth_error prods pi = Some p /\ bp_rule p = i.
Proof.
  intros i pi. unfold prods_of. rewrite in_map_iff. split.
  - intros [[k p] [Hk Hin]]. simpl in Hk. subst k. apply filter_In in Hin.
    destruct Hin as [Hin Hb]. simpl in Hb. apply Nat.eqb_eq in Hb.
    apply in_indexed in Hin. eauto.
  - intros [p [Hn Hr]]. exists (pi, p). split; auto. apply filter_In. split.
    + apply in_indexed; auto.
    + simpl. apply Nat.eqb_eq; auto.
Qed.

Lemma wf_prods_distinct : forall i r q p1 rest,
  wf_input rules prods ms = true -> nth_error rules i = Some r ->
  br_prods r = q :: p1 :: rest -> p1 <> q.
Proof.
  intros i r q p1 rest Hwf Hn Hp. pose proof (wf_rule_in i r Hwf Hn) as Hp'.
  pose proof (prods_of_nodup i) as Hnd. rewrite <- Hp', Hp in Hnd.
  inversion Hnd; subst. intros ->. apply H1. simpl; auto.
Qed.

Lemma kind_cases : forall k,
  (k = NotGenerated \/ k = SPrime) \/ k = ZeroOrOne \/ is_plus k \/ is_star k.
Proof. unfold is_plus, is_star. destruct k; auto 8. Qed.

Lemma red_user : forall f rt k r pi,
  nth_error rules k = Some r -> br_kind r = NotGenerated \/ br_kind r = SPrime ->
  red (S f) rt k pi = RT INil.
Proof. intros f rt k r pi Hn [K|K]; simpl; rewrite Hn, K; reflexivity. Qed.

Lemma red_opt : forall f rt k r pi,
  nth_error rules k = Some r -> br_kind r = ZeroOrOne ->
  red (S f) rt k pi =
  match br_prods r with
  | [] => RP PIdxProds
  | p0 :: _ =>
    if negb (pi =? p0) then RT INil else
    match nth_error prods pi with
    | None => RP PBadIndex
    | Some p =>
      match first_term_ity tok err rt p with None => RP PIdxTerms | Some t => RT t end
    end
  end.
Proof. intros f rt k r pi Hn K. simpl. rewrite Hn, K. reflexivity. Qed.

Lemma red_plus : forall f rt k r pi,
  nth_error rules k = Some r -> is_plus (br_kind r) ->
  red (S f) rt k pi =
  match br_prods r with
  | _ :: p1 :: _ =>
    if negb (pi =? p1) then RT INil else
    match nth_error prods pi with
    | None => RP PBadIndex
    | Some p =>
      match first_term_ity tok err rt p with
      | None => RP PIdxTerms
      | Some t => RT (islice o t)
      end
    end
  | _ => RP PIdxProds
  end.
Proof. intros f rt k r pi Hn [K|[K|K]]; simpl; rewrite Hn, K; reflexivity. Qed.

Lemma red_star : forall f rt k r pi,
  nth_error rules k = Some r -> is_star (br_kind r) ->
  red (S f) rt k pi =
  match br_prods r with
  | [] => RP PIdxProds
  | p0 :: _ =>
    if negb (pi =? p0) then RT INil else
    match nth_error prods pi with
    | None => RP PBadIndex
    | Some p =>
      match bp_terms p with
      | [] => RP PIdxTerms
      | (true, _) :: _ => RP PNotRule
      | (false, c) :: _ =>
        match nth_error rules c with
        | None => RP PBadIndex
        | Some rc =>
          match br_prods rc with
          | _ :: p1 :: _ =>
            match red f rt c p1 with
            | RP s => RP s
            | RT INil => RP PAssertNil
            | RT t => RT t
            end
          | _ => RP PIdxProds
          end
        end
      end
    end
  end.
Proof. intros f rt k r pi Hn [K|K]; simpl; rewrite Hn, K; reflexivity. Qed.

Lemma first_term_ity_cons : forall rt p x xs,
  bp_terms p = x :: xs -> first_term_ity tok err rt p = Some (term_ity tok err rt x).
Proof.
  intros rt p [b c] xs H. unfold first_term_ity, term_ity. rewrite H. destruct b; reflexivity.
Qed.

Lemma first_term_ity_inv : forall rt p e,
  first_term_ity tok err rt p = Some e ->
  exists x xs, bp_terms p = x :: xs /\ e = term_ity tok err rt x.
Proof.
  intros rt p e H. destruct (bp_terms p) as [|x xs] eqn:Hx.
  - unfold first_term_ity in H. rewrite Hx in H. discriminate.
  - rewrite (first_term_ity_cons rt p x xs Hx) in H. inversion H. eauto.
Qed.

(* source k pi x sl: production pi defines the type of the generated rule k as
   the type of the term x, sliced iff sl *)
Inductive source (k : nat) : nat -> bool * nat -> bool -> Prop :=
| src_opt : forall r pi rest p x xs,
    nth_error rules k = Some r -> br_kind r = ZeroOrOne ->
    br_prods r = pi :: rest -> nth_error prods pi = Some p -> bp_terms p = x :: xs ->
    source k pi x false
| src_plus : forall r q pi rest p x xs,
    nth_error rules k = Some r -> is_plus (br_kind r) ->
    br_prods r = q :: pi :: rest -> nth_error prods pi = Some p -> bp_terms p = x :: xs ->
    source k pi x true
| src_star : forall r pi rest p c xs rc q p1 rest' pc x xs',
    nth_error rules k = Some r -> is_star (br_kind r) ->
    br_prods r = pi :: rest -> nth_error prods pi = Some p -> bp_terms p = (false, c) :: xs ->
    nth_error rules c = Some rc -> is_plus (br_kind rc) ->
    br_prods rc = q :: p1 :: rest' -> nth_error prods p1 = Some pc -> bp_terms pc = x :: xs' ->
    source k pi x true.

Definition value (sl : bool) (e : ity) : ity := if sl then islice o e else e.
Definition vty (sl : bool) (t : ty) : ty := if sl then slice_of o t else t.

Lemma islice_IT : forall e t, islice o e = IT t -> exists t0, e = IT t0 /\ t = slice_of o t0.
Proof. intros [|t0|e] t H; simpl in H; inversion H. eauto. Qed.

Lemma islice_nonnil : forall e, islice o e <> INil.
Proof. intros [|t0|e]; simpl; discriminate. Qed.

Lemma value_IT : forall sl e t, value sl e = IT t -> exists t0, e = IT t0 /\ t = vty sl t0.
Proof. intros [|] e t H; simpl in H; [apply islice_IT in H; exact H|eauto]. Qed.

Lemma reduce_plus_at : forall f rt c rc q p1 rest p x xs,
  nth_error rules c = Some rc -> is_plus (br_kind rc) ->
  br_prods rc = q :: p1 :: rest -> nth_error prods p1 = Some p -> bp_terms p = x :: xs ->
  red (S f) rt c p1 = RT (islice o (term_ity tok err rt x)).
Proof.
  intros f rt c rc q p1 rest p x xs Hn Hk Hp Hnp Hx.
  rewrite (red_plus _ _ _ _ _ Hn Hk), Hp, Nat.eqb_refl. cbn [negb].
  rewrite Hnp, (first_term_ity_cons rt p x xs Hx). reflexivity.
Qed.

Lemma reduce_plus_inv : forall f rt c rc pi t,
  nth_error rules c = Some rc -> is_plus (br_kind rc) ->
  red (S f) rt c pi = RT t -> t <> INil ->
  exists q rest p x xs,
    br_prods rc = q :: pi :: rest /\ nth_error prods pi = Some p /\
    bp_terms p = x :: xs /\ t = islice o (term_ity tok err rt x).
Proof.
  intros f rt c rc pi t Hn Hk H Ht. rewrite (red_plus _ _ _ _ _ Hn Hk) in H.
  destruct (br_prods rc) as [|q [|p1 rest]]; try discriminate.
  destruct (Nat.eqb_spec pi p1) as [<-|]; cbn [negb] in H; [|congruence].
  destruct (nth_error prods pi) as [p|]; [|discriminate].
  destruct (first_term_ity tok err rt p) as [e|] eqn:Ef; [|discriminate].
  apply first_term_ity_inv in Ef. destruct Ef as [x [xs [Hx ->]]].
  inversion H. eauto 10.
Qed.

Lemma reduce_type_of_source : forall rt k pi x sl,
  source k pi x sl -> reduce2 rt k pi = RT (value sl (term_ity tok err rt x)).
Proof.
  intros rt k pi x sl H. unfold reduce_fuel.
  destruct H as [r pi rest p x xs Hn K Hp Hnp Hx
                |r q pi rest p x xs Hn K Hp Hnp Hx
                |r pi rest p c xs rc q p1 rest' pc x xs' Hn K Hp Hnp Hx Hnc Kc Hpc Hnpc Hxc].
  - rewrite (red_opt _ _ _ _ _ Hn K), Hp, Nat.eqb_refl. cbn [negb].
    rewrite Hnp, (first_term_ity_cons rt p x xs Hx). reflexivity.
  - eapply reduce_plus_at; eauto.
  - rewrite (red_star _ _ _ _ _ Hn K), Hp, Nat.eqb_refl. cbn [negb].
    rewrite Hnp, Hx, Hnc, Hpc, (reduce_plus_at 0 rt c rc q p1 rest' pc x xs' Hnc Kc Hpc Hnpc Hxc).
    unfold value. destruct (term_ity tok err rt x); reflexivity.
Qed.

Lemma reduce_type_other : forall rt k pi0 x sl pi,
  source k pi0 x sl -> pi <> pi0 -> reduce2 rt k pi = RT INil.
Proof.
  intros rt k pi0 x sl pi H Hne. apply Nat.eqb_neq in Hne. unfold reduce_fuel.
  destruct H as [r pi0 rest p x xs Hn K Hp _ _
                |r q pi0 rest p x xs Hn K Hp _ _
                |r pi0 rest p c xs rc q p1 rest' pc x xs' Hn K Hp _ _ _ _ _ _ _].
  - rewrite (red_opt _ _ _ _ _ Hn K), Hp, Hne. reflexivity.
  - rewrite (red_plus _ _ _ _ _ Hn K), Hp, Hne. reflexivity.
  - rewrite (red_star _ _ _ _ _ Hn K), Hp, Hne. reflexivity.
Qed.

(* under wf_input the productions of a rule are distinct, so the inner call of
   the `*` case, made with Prods[1], gives a type only on a `+` rule *)
Lemma red_inner_plus : forall rt c rc q p1 rest t,
  wf_input rules prods ms = true ->
  nth_error rules c = Some rc -> br_prods rc = q :: p1 :: rest ->
  red 1 rt c p1 = RT t -> t <> INil -> is_plus (br_kind rc).
Proof.
  intros rt c rc q p1 rest t Hwf Hn Hp H Ht.
  pose proof (wf_prods_distinct c rc q p1 rest Hwf Hn Hp) as Hne. apply Nat.eqb_neq in Hne.
  destruct (kind_cases (br_kind rc)) as [K|[K|[K|K]]]; auto; exfalso.
  - rewrite (red_user _ _ _ _ _ Hn K) in H. congruence.
  - rewrite (red_opt _ _ _ _ _ Hn K), Hp, Hne in H. cbn [negb] in H. congruence.
  - rewrite (red_star _ _ _ _ _ Hn K), Hp, Hne in H. cbn [negb] in H. congruence.
Qed.

Lemma reduce_type_source : forall rt k pi t,
  wf_input rules prods ms = true ->
  reduce2 rt k pi = RT t -> t <> INil ->
  exists x sl, source k pi x sl /\ t = value sl (term_ity tok err rt x).
Proof.
  intros rt k pi t Hwf H Ht. unfold reduce_fuel in H.
  destruct (nth_error rules k) as [r|] eqn:Hn; [|simpl in H; rewrite Hn in H; discriminate].
  destruct (kind_cases (br_kind r)) as [K|[K|[K|K]]].
  - rewrite (red_user _ _ _ _ _ Hn K) in H. congruence.
  - rewrite (red_opt _ _ _ _ _ Hn K) in H.
    destruct (br_prods r) as [|p0 rest] eqn:Hp; [discriminate|].
    destruct (Nat.eqb_spec pi p0) as [<-|]; cbn [negb] in H; [|congruence].
    destruct (nth_error prods pi) as [p|] eqn:Hnp; [|discriminate].
    destruct (first_term_ity tok err rt p) as [e|] eqn:Ef; [|discriminate].
    apply first_term_ity_inv in Ef. destruct Ef as [x [xs [Hx ->]]]. inversion H.
    exists x, false. split; [eapply src_opt; eauto|reflexivity].
  - destruct (reduce_plus_inv _ _ _ _ _ _ Hn K H Ht) as [q [rest [p [x [xs [Hp [Hnp [Hx ->]]]]]]]].
    exists x, true. split; [eapply src_plus; eauto|reflexivity].
  - rewrite (red_star _ _ _ _ _ Hn K) in H.
    destruct (br_prods r) as [|p0 rest] eqn:Hp; [discriminate|].
    destruct (Nat.eqb_spec pi p0) as [<-|]; cbn [negb] in H; [|congruence].
    destruct (nth_error prods pi) as [p|] eqn:Hnp; [|discriminate].
    destruct (bp_terms p) as [|[[|] c] xs] eqn:Hx; try discriminate.
    destruct (nth_error rules c) as [rc|] eqn:Hnc; [|discriminate].
    destruct (br_prods rc) as [|q [|p1 rest']] eqn:Hpc; try discriminate.
    destruct (red 1 rt c p1) as [s|t'] eqn:Hin; [discriminate|].
    assert (t' = t) by (destruct t'; congruence). subst t'.
    pose proof (red_inner_plus _ _ _ _ _ _ _ Hwf Hnc Hpc Hin Ht) as Kc.
    destruct (reduce_plus_inv _ _ _ _ _ _ Hnc Kc Hin Ht)
      as [q' [rest'' [pc [x [xs' [Hpc' [Hnpc [Hxc ->]]]]]]]].
    exists x, true. split; [eapply src_star; eauto|reflexivity].
Qed.

Lemma has_type_source : forall k pi x sl t,
  source k pi x sl -> elem_type has_type x t -> has_type k (vty sl t).
Proof.
  intros k pi x sl t H He. destruct H; [eapply HT_opt|eapply HT_plus|eapply HT_star]; eauto.
Qed.

Lemma has_type_inv : forall i t, has_type i t ->
  (exists r f others,
     nth_error rules i = Some r /\ group acts (br_name r) = f :: others /\ t = ret f) \/
  (exists pi x sl t0, source i pi x sl /\ elem_type has_type x t0 /\ t = vty sl t0).
Proof.
  intros i t H. destruct H.
  - left. eauto 6.
  - right. exists p0, x, false, t. split; [eapply src_opt; eauto|auto].
  - right. exists p1, x, true, t. split; [eapply src_plus; eauto|auto].
  - right. exists p0, x, true, t. split; [eapply src_star; eauto|auto].
Qed.

(* Transparent: has_type_ind2 passes its own recursive call as HP, and the guard
   checker has to unfold this to see that call applied to a subterm. *)
Lemma elem_type_both : forall (P : nat -> ty -> Prop) x t,
  (forall c t, has_type c t -> P c t) ->
  elem_type has_type x t -> elem_type (fun c t => has_type c t /\ P c t) x t.
Proof. intros P x t HP [H|[Hx H]]; [left; exact H|right; auto]. Defined.

(* has_type_ind gives no hypothesis for the has_type under the disjunction in
   the last premise of HT_opt, HT_plus, HT_star; this principle does *)
Lemma has_type_ind2 : forall (P : nat -> ty -> Prop),
  (forall i r f others,
     nth_error rules i = Some r -> group acts (br_name r) = f :: others -> P i (ret f)) ->
  (forall k pi x sl t, source k pi x sl ->
     elem_type (fun c t => has_type c t /\ P c t) x t -> P k (vty sl t)) ->
  forall i t, has_type i t -> P i t.
Proof.
  intros P Hm Hs. fix IH 3. intros i t H. destruct H.
  - eapply Hm; eauto.
  - apply (Hs i p0 x false t); [eapply src_opt; eauto|apply (elem_type_both P x t IH); assumption].
  - apply (Hs i p1 x true t); [eapply src_plus; eauto|apply (elem_type_both P x t IH); assumption].
  - apply (Hs i p0 x true t); [eapply src_star; eauto|apply (elem_type_both P x t IH); assumption].
Qed.

Lemma reduce_type_sound : forall rt ri pi t,
  wf_input rules prods ms = true -> rt_sound rt ->
  reduce2 rt ri pi = RT (IT t) -> has_type ri t.
Proof.
  intros rt ri pi t Hwf Hs H.
  destruct (reduce_type_source rt ri pi _ Hwf H) as [x [sl [Hsrc Hv]]]; [discriminate|].
  symmetry in Hv. apply value_IT in Hv. destruct Hv as [t0 [Hx ->]].
  apply (has_type_source _ _ _ _ _ Hsrc). unfold term_ity in Hx. unfold elem_type.
  destruct x as [[|] c]; simpl in *; [left; split; congruence|right; auto].
Qed.

Lemma pass_cons : forall ip rest rt ch,
  pass' (ip :: rest) rt ch =
  match reduce2 rt (bp_rule (snd ip)) (fst ip) with
  | RP s => PPanic s
  | RT t =>
    if ity_is_nil t then pass' rest rt ch
    else if ity_is_nil (rt_get rt (bp_rule (snd ip)))
         then pass' rest ((bp_rule (snd ip), t) :: rt) true
         else if ity_identical o (rt_get rt (bp_rule (snd ip))) t then pass' rest rt ch
              else PPanic PAssertIdentical
  end.
Proof.
  intros. cbn [pass].
  destruct (reduce2 rt (bp_rule (snd ip)) (fst ip)) as [s|[|t|e]]; try reflexivity;
    destruct (rt_get rt (bp_rule (snd ip))); reflexivity.
Qed.

Lemma pass_cons_inv : forall ip rest rt ch rt' ch',
  pass' (ip :: rest) rt ch = PDone rt' ch' ->
  exists t, reduce2 rt (bp_rule (snd ip)) (fst ip) = RT t /\
    ((t = INil /\ pass' rest rt ch = PDone rt' ch') \/
     (t <> INil /\ rt_get rt (bp_rule (snd ip)) = INil /\
      pass' rest ((bp_rule (snd ip), t) :: rt) true = PDone rt' ch') \/
     (rt_get rt (bp_rule (snd ip)) <> INil /\
      ity_identical o (rt_get rt (bp_rule (snd ip))) t = true /\
      pass' rest rt ch = PDone rt' ch')).
Proof.
  intros ip rest rt ch rt' ch' H. rewrite pass_cons in H.
  destruct (reduce2 rt (bp_rule (snd ip)) (fst ip)) as [s|t]; [discriminate|].
  exists t. split; auto.
  destruct (ity_is_nil t) eqn:Et; [apply ity_is_nil_true in Et; auto|].
  apply ity_is_nil_false in Et.
  destruct (ity_is_nil (rt_get rt (bp_rule (snd ip)))) eqn:Eg;
    [apply ity_is_nil_true in Eg; auto|].
  apply ity_is_nil_false in Eg.
  destruct (ity_identical o (rt_get rt (bp_rule (snd ip))) t) eqn:Ei; [auto 10|discriminate].
Qed.

Lemma pass_invariant : forall (P : rtypes -> Prop),
  (forall rt k t pi, P rt -> rt_get rt k = INil -> t <> INil ->
     reduce2 rt k pi = RT t -> P ((k, t) :: rt)) ->
  forall ps rt ch rt' ch', P rt -> pass' ps rt ch = PDone rt' ch' -> P rt'.
Proof.
  intros P Hstep. induction ps as [|ip rest IH]; intros rt ch rt' ch' HP H.
  - inversion H; subst; auto.
  - apply pass_cons_inv in H.
    destruct H as [t [Hr [[_ H]|[[Ht [Hn H]]|[_ [_ H]]]]]]; eauto.
Qed.

Lemma derive_invariant : forall (P : rtypes -> Prop),
  (forall rt k t pi, P rt -> rt_get rt k = INil -> t <> INil ->
     reduce2 rt k pi = RT t -> P ((k, t) :: rt)) ->
  forall fuel rt rt', P rt -> derive o tok err rules prods fuel rt = DvOk rt' -> P rt'.
Proof.
  intros P Hstep. induction fuel as [|f IH]; intros rt rt' HP H; simpl in H; [discriminate|].
  destruct (pass' (indexed prods) rt false) as [s|rt1 ch] eqn:Ep; [discriminate|].
  assert (P rt1) by (eapply pass_invariant; eauto).
  destruct ch.
  - eapply IH; eauto.
  - inversion H; subst; auto.
Qed.

Lemma derive_sound : forall fuel rt rt',
  wf_input rules prods ms = true -> rt_sound rt ->
  derive o tok err rules prods fuel rt = DvOk rt' -> rt_sound rt'.
Proof.
  intros fuel rt rt' Hwf. apply derive_invariant.
  intros rt0 k t pi Hs Hnil Ht Hr i t1 Hg. simpl in Hg.
  destruct (k =? i) eqn:E.
  - apply Nat.eqb_eq in E. subst. eapply reduce_type_sound; eauto.
  - apply Hs; auto.
Qed.

Lemma derive_mono : forall fuel rt rt' i,
  derive o tok err rules prods fuel rt = DvOk rt' ->
  rt_get rt i <> INil -> rt_get rt' i = rt_get rt i.
Proof.
  intros fuel rt rt' i H Hi.
  apply (derive_invariant (fun r => rt_get r i = rt_get rt i)) with (3 := H); auto.
  intros rt1 k t pi Hs Hnil Ht Hr. simpl. destruct (k =? i) eqn:E; auto.
  apply Nat.eqb_eq in E. subst. congruence.
Qed.

Lemma group_cons : forall r f others m,
  group acts r = f :: others -> In m (f :: others) -> In m ms /\ rule_of m = Some r.
Proof. intros r f others m Hg Hin. apply in_group_iff. rewrite Hg. exact Hin. Qed.

Lemma phase0_errs_nil_iff :
  phase0_errs ms = [] <->
  forall m, In m ms -> is_action m = true -> List.length (m_results m) = 1.
Proof.
  unfold phase0_errs. split.
  - intros H m Hms Hact. apply map_eq_nil in H.
    pose proof (proj1 (filter_nil_iff _ _) H m (proj2 (in_actions m) (conj Hms Hact))) as Hb.
    unfold bad_result_count in Hb. apply negb_false_iff, Nat.eqb_eq in Hb. exact Hb.
  - intros H. rewrite (proj2 (filter_nil_iff bad_result_count acts)); auto.
    intros m Hm. apply in_actions in Hm. destruct Hm as [Hms Hact].
    unfold bad_result_count. rewrite (H m Hms Hact). reflexivity.
Qed.

Lemma phase1_errs_nil_iff :
  phase1_errs o rules acts = [] <->
  forall r f others, group acts r = f :: others ->
    (exists i, find_rule rules r = Some i) /\
    (forall m, In m others -> identical o (ret m) (ret f) = true).
Proof.
  unfold phase1_errs. split.
  - intros H r f others Hg.
    destruct (group_cons r f others f Hg (or_introl eq_refl)) as [Hfm Hfr].
    assert (Hname : In r (group_names acts)) by (apply in_group_names; eauto).
    pose proof (proj1 (flat_map_nil_iff _ _) H _ Hname) as Hp. unfold phase1_group in Hp. rewrite Hg in Hp.
    destruct (find_rule rules r) as [i|]; simpl in Hp.
    + split; [eauto|]. intros m Hm. apply map_eq_nil in Hp.
      apply negb_false_iff. exact (proj1 (filter_nil_iff _ _) Hp m Hm).
    + apply app_eq_nil in Hp. destruct Hp; discriminate.
  - intros H. apply flat_map_nil_iff. intros r Hr.
    apply in_group_names in Hr. destruct Hr as [m [Hms Hmr]].
    assert (Hg : In m (group acts r)) by (apply in_group_iff; auto).
    unfold phase1_group. destruct (group acts r) as [|f others] eqn:Eg; [contradiction|].
    destruct (H r f others Eg) as [[i ->] Hid]. simpl.
    rewrite (proj2 (filter_nil_iff _ others)); auto.
    intros m' Hm'. rewrite (Hid m' Hm'). reflexivity.
Qed.

Lemma phase1_types_in : forall i x,
  In (i, x) (phase1_types o rules acts) ->
  exists r f others,
    group acts r = f :: others /\ find_rule rules r = Some i /\ x = IT (ret f).
Proof.
  intros i x H. unfold phase1_types in H. apply in_flat_map in H.
  destruct H as [r [_ H]]. unfold phase1_group in H.
  destruct (group acts r) as [|f others] eqn:Eg; [contradiction|].
  destruct (find_rule rules r) as [j|] eqn:Ef; simpl in H; [|contradiction].
  destruct H as [H|[]]. inversion H; subst. eauto 6.
Qed.

Lemma rt0_get_inv : forall k,
  rt_get (phase1_types o rules acts) k = INil \/
  exists r f others, group acts r = f :: others /\ find_rule rules r = Some k /\
                     rt_get (phase1_types o rules acts) k = IT (ret f).
Proof.
  intros k. destruct (rt_get (phase1_types o rules acts) k) eqn:E; [auto| |]; right;
    (apply rt_get_in in E; [|discriminate]); apply phase1_types_in in E;
    destruct E as [r [f [others [Hg [Hf Hx]]]]]; [|discriminate].
  inversion Hx. eauto 6.
Qed.

Lemma rt0_value : forall k rl f others,
  NoDup (map br_name rules) -> nth_error rules k = Some rl ->
  group acts (br_name rl) = f :: others -> rt_get (phase1_types o rules acts) k = IT (ret f).
Proof.
  intros k rl f others Hnd Hn Hg.
  destruct (rt0_get_inv k) as [E|[r [f' [others' [Hg' [Hf E]]]]]].
  - (* the group of rl contributes an entry for k, and no entry is nil *)
    exfalso. revert E. apply (rt_get_nonnil _ k (IT (ret f))).
    + intros [j x] Hj. apply phase1_types_in in Hj.
      destruct Hj as [? [? [? [_ [_ ->]]]]]. discriminate.
    + unfold phase1_types. apply in_flat_map. exists (br_name rl). split.
      * apply in_group_names. exists f. exact (group_cons _ _ _ f Hg (or_introl eq_refl)).
      * unfold phase1_group. rewrite Hg, (find_rule_complete _ _ _ Hnd Hn). simpl. auto.
  - (* the entry found comes from a group of the same name, hence the same group *)
    rewrite E. apply find_rule_some in Hf. destruct Hf as [rl' [Hn' <-]].
    rewrite Hn in Hn'. inversion Hn'; subst rl'. rewrite Hg in Hg'. inversion Hg'. reflexivity.
Qed.

Lemma phase1_types_sound : rt_sound (phase1_types o rules acts).
Proof.
  intros i t H. apply rt_get_in in H; [|discriminate].
  apply phase1_types_in in H. destruct H as [r [f [others [Hg [Hf Hx]]]]].
  inversion Hx; subst. apply find_rule_some in Hf. destruct Hf as [rl [Hn Hname]].
  subst r. eapply HT_meth; eauto.
Qed.

Lemma rt_final_sound : forall rt,
  wf_input rules prods ms = true -> rt_final rt -> rt_sound rt.
Proof.
  intros rt Hwf [_ [_ [Hd _]]]. eapply derive_sound; eauto. apply phase1_types_sound.
Qed.

Definition typing (rtl : list (nat * ty)) : Prop :=
  forall i t, In (i, t) rtl -> has_type i t.

Lemma rule_types_typing : forall rt,
  rt_sound rt -> typing (rule_types_of rules rt).
Proof. intros rt Hs i t H. apply rule_types_in in H. apply Hs. tauto. Qed.

Lemma missing_rules_nil_iff : forall rt,
  missing_rules rules rt = [] <->
  forall k r, nth_error rules k = Some r -> br_kind r <> SPrime -> rt_get rt k <> INil.
Proof.
  intros rt. unfold missing_rules. split.
  - intros Hm k r Hn Hk.
    pose proof (proj1 (flat_map_nil_iff _ _) Hm (k, r) (proj2 (in_indexed _ _ _ _) Hn)) as Hx. simpl in Hx.
    destruct (is_sprime (br_kind r)) eqn:Es; [apply is_sprime_true in Es; contradiction|].
    destruct (ity_is_nil (rt_get rt k)) eqn:En; [discriminate|]. apply ity_is_nil_false, En.
  - intros H. apply flat_map_nil_iff. intros [i rl] Hin. simpl. apply in_indexed in Hin.
    destruct (is_sprime (br_kind rl)) eqn:Es; auto.
    assert (Hnn : rt_get rt i <> INil).
    { apply (H i rl Hin). intros K. rewrite K in Es. discriminate. }
    apply ity_is_nil_false in Hnn. rewrite Hnn. reflexivity.
Qed.

Lemma in_matches : forall rt p m,
  In m (matches o tok err rules rt acts p) <->
  In m ms /\ rule_of m = Some (name_of rules (bp_rule p)) /\ is_match o tok err rt p m = true.
Proof.
  intros rt p m. unfold matches. rewrite filter_In, in_group_iff. tauto.
Qed.

Lemma in_matches_accepts : forall rt p m,
  wf_input rules prods ms = true -> In p prods ->
  (In m (matches o tok err rules rt acts p) <->
   (In m ms /\ rule_of m = Some (name_of rules (bp_rule p))) /\
   accepts (rule_types_of rules rt) m p).
Proof. intros rt p m Hwf Hp. rewrite in_matches, (is_match_iff rt p m Hwf Hp). tauto. Qed.

Lemma matches_nodup_ids : forall rt p,
  NoDup (map m_id ms) -> NoDup (map m_id (matches o tok err rules rt acts p)).
Proof.
  intros rt p H. unfold matches, group, actions.
  repeat apply nodup_map_filter. exact H.
Qed.

Lemma matches_single : forall rt pi p,
  phase4_errs o tok err rules prods rt acts = [] ->
  In (pi, p) (user_prods rules prods) ->
  exists m, matches o tok err rules rt acts p = [m].
Proof.
  intros rt pi p H Hin. unfold phase4_errs in H.
  pose proof (proj1 (flat_map_nil_iff _ _) H _ Hin) as Hx. simpl in Hx.
  destruct (matches o tok err rules rt acts p) as [|m [|m' l]]; try discriminate. eauto.
Qed.

Lemma in_phase4_errs : forall rt d,
  In d (phase4_errs o tok err rules prods rt acts) <->
  exists pi p, In (pi, p) (user_prods rules prods) /\
    (d = DNoMatch pi /\ matches o tok err rules rt acts p = [] \/
     d = DMultipleMatch pi /\ exists a b l, matches o tok err rules rt acts p = a :: b :: l).
Proof.
  intros rt d. unfold phase4_errs. rewrite in_flat_map. split.
  - intros [[pi p] [Hin H]]. simpl in H. exists pi, p. split; [exact Hin|].
    destruct (matches o tok err rules rt acts p) as [|m1 [|m2 l]]; [left|contradiction|right];
      destruct H as [<-|[]]; eauto.
  - intros [pi [p [Hup H]]]. exists (pi, p). split; [exact Hup|]. simpl.
    destruct H as [[-> E]|[-> [a [b [l E]]]]]; rewrite E; left; reflexivity.
Qed.

Lemma in_binding : forall rt pi mid,
  In (pi, mid) (phase4_binding o tok err rules prods rt acts) <->
  exists p m, In (pi, p) (user_prods rules prods) /\
              matches o tok err rules rt acts p = [m] /\ mid = m_id m.
Proof.
  intros rt pi mid. unfold phase4_binding. rewrite in_flat_map. split.
  - intros [[pi' p] [Hin H]]. simpl in H.
    destruct (matches o tok err rules rt acts p) as [|m [|m' l]] eqn:E; try contradiction.
    destruct H as [H|[]]. inversion H; subst. exists p, m. auto.
  - intros [p [m [Hin [E ->]]]]. exists (pi, p). split; auto. simpl. rewrite E. simpl. auto.
Qed.

Lemma binding_nodup : forall rt,
  NoDup (map fst (phase4_binding o tok err rules prods rt acts)).
Proof.
  intros rt. unfold phase4_binding. apply nodup_flat_map_fst.
  - unfold user_prods. apply nodup_map_filter. apply indexed_nodup.
  - intros [pi p] _. simpl.
    destruct (matches o tok err rules rt acts p) as [|m [|m' l]]; eauto.
Qed.

Lemma bound_iff : forall rt m,
  NoDup (map m_id ms) -> In m ms ->
  (existsb (fun pm : nat * nat => snd pm =? m_id m)
           (phase4_binding o tok err rules prods rt acts) = true <->
   exists pi p, In (pi, p) (user_prods rules prods) /\ matches o tok err rules rt acts p = [m]).
Proof.
  intros rt m Hnd Hms. rewrite existsb_exists. split.
  - intros [[pi mid] [Hin Heq]]. simpl in Heq. apply Nat.eqb_eq in Heq. subst mid.
    apply in_binding in Hin. destruct Hin as [p [m' [Hup [Hm' Hid]]]].
    assert (Hmm : In m' (matches o tok err rules rt acts p)) by (rewrite Hm'; simpl; auto).
    apply in_matches in Hmm. destruct Hmm as [Hms' _].
    rewrite (NoDup_map_inj_in m_id ms Hnd m' m Hms' Hms (eq_sym Hid)) in Hm'. eauto.
  - intros [pi [p [Hup Hm]]]. exists (pi, m_id m). split; [|simpl; apply Nat.eqb_refl].
    apply in_binding. eauto.
Qed.

Lemma unassigned_nil_iff : forall b,
  unassigned acts b = [] <->
  forall m, In m acts -> existsb (fun pm : nat * nat => snd pm =? m_id m) b = true.
Proof.
  intros b. unfold unassigned. split.
  - intros H m Hm. apply map_eq_nil in H. apply negb_false_iff.
    exact (proj1 (filter_nil_iff _ _) H m Hm).
  - intros H. rewrite (proj2 (filter_nil_iff _ acts)); auto.
    intros m Hm. rewrite (H m Hm). reflexivity.
Qed.

(* the per-production clause, both directions, for every input that reaches
   the matching phase (rt is the table of rule types at that point) *)
Theorem prod_clause_exact : forall rt pi p,
  wf_input rules prods ms = true ->
  nth_error prods pi = Some p -> kind_of rules (bp_rule p) = NotGenerated ->
  let rtl := rule_types_of rules rt in
  let meth_of m := In m ms /\ rule_of m = Some (name_of rules (bp_rule p)) in
  (In (DNoMatch pi) (phase4_errs o tok err rules prods rt acts) <->
   forall m, meth_of m -> ~ accepts rtl m p) /\
  (In (DMultipleMatch pi) (phase4_errs o tok err rules prods rt acts) <->
   exists m1 m2, meth_of m1 /\ meth_of m2 /\ m_id m1 <> m_id m2 /\
                 accepts rtl m1 p /\ accepts rtl m2 p) /\
  ((exists mid, In (pi, mid) (phase4_binding o tok err rules prods rt acts)) <->
   exists m, meth_of m /\ accepts rtl m p /\
             forall m', meth_of m' -> accepts rtl m' p -> m' = m).
Proof.
  intros rt pi p Hwf Hn Hk rtl meth_of. subst meth_of. cbv beta.
  assert (Hup : In (pi, p) (user_prods rules prods)) by (apply in_user_prods; auto).
  pose proof (fun m => in_matches_accepts rt p m Hwf (nth_error_In _ _ Hn)) as Hmem.
  fold rtl in Hmem.
  assert (Hsame : forall p', In (pi, p') (user_prods rules prods) -> p' = p).
  { intros p' Hup'. apply in_user_prods in Hup'. destruct Hup' as [Hn' _]. congruence. }
  pose proof (matches_nodup_ids rt p (wf_ids Hwf)) as Hnd.
  (* each side fixes the shape of the list l of matches of p; after Hmem only currying is left *)
  set (l := matches o tok err rules rt acts p) in *.
  split; [|split].
  - transitivity (l = []).
    + rewrite in_phase4_errs. split.
      * intros [pi' [p' [Hup' [[E M]|[E _]]]]]; [|discriminate].
        inversion E; subst pi'. rewrite (Hsame _ Hup') in M. exact M.
      * intros M. exists pi, p. auto.
    + rewrite (list_nil_iff l). setoid_rewrite Hmem.
      split; intros H m; specialize (H m); tauto.
  - transitivity (exists a b l', l = a :: b :: l').
    + rewrite in_phase4_errs. split.
      * intros [pi' [p' [Hup' [[E _]|[E M]]]]]; [discriminate|].
        inversion E; subst pi'. rewrite (Hsame _ Hup') in M. exact M.
      * intros M. exists pi, p. auto.
    + rewrite (list_two_iff m_id l Hnd). setoid_rewrite Hmem.
      split; intros [x [y H]]; exists x, y; tauto.
  - transitivity (exists a, l = [a]).
    + split.
      * intros [mid Hin]. apply in_binding in Hin. destruct Hin as [p' [m [Hup' [Hm _]]]].
        rewrite (Hsame _ Hup') in Hm. eauto.
      * intros [a E]. exists (m_id a). apply in_binding. eauto.
    + rewrite (list_one_iff m_id l Hnd). setoid_rewrite Hmem. split.
      * intros [x [Hx Hu]]. exists x. split; [tauto|]. split; [tauto|].
        intros m' Hm' Ha'. apply Hu. tauto.
      * intros [m [Hm [Ha Hu]]]. exists m. split; [tauto|]. intros y Hy. apply Hu; tauto.
Qed.

Theorem binding_unique : forall b rtl,
  assign_actions o tok err rules prods ms = BOk b rtl ->
  typing rtl /\
  NoDup (map fst b) /\
  (forall pi mid, In (pi, mid) b ->
     exists p, nth_error prods pi = Some p /\ kind_of rules (bp_rule p) = NotGenerated) /\
  (forall pi p, nth_error prods pi = Some p -> kind_of rules (bp_rule p) = NotGenerated ->
     exists m, In m ms /\ In (pi, m_id m) b /\
       (forall mid, In (pi, mid) b -> mid = m_id m) /\
       rule_of m = Some (name_of rules (bp_rule p)) /\
       List.length (m_results m) = 1 /\
       List.length (m_params m) = List.length (bp_terms p) /\
       accepts rtl m p).
Proof.
  intros b rtl H. apply assign_ok_inv in H.
  destruct H as [Hwf [rt [Hfin [Hpan [Herr [Hun [Hb Hrtl]]]]]]]. subst b rtl.
  split; [apply rule_types_typing; apply rt_final_sound; auto|].
  split; [apply binding_nodup|]. split.
  - intros pi mid Hin. apply in_binding in Hin. destruct Hin as [p [m [Hin _]]].
    exists p. apply in_user_prods; auto.
  - intros pi p Hn Hk.
    assert (Hin : In (pi, p) (user_prods rules prods)) by (apply in_user_prods; auto).
    destruct (matches_single rt pi p Herr Hin) as [m Hm].
    assert (Hmm : In m (matches o tok err rules rt acts p)) by (rewrite Hm; simpl; auto).
    apply (in_matches_accepts rt p m Hwf (nth_error_In _ _ Hn)) in Hmm.
    destruct Hmm as [[Hms Hr] Hacc].
    assert (Hbm : In (pi, m_id m) (phase4_binding o tok err rules prods rt acts)).
    { apply in_binding. exists p, m. auto. }
    exists m. repeat split; auto.
    + intros mid Hmid. eapply NoDup_map_fst_inj; eauto. apply binding_nodup.
    + destruct Hfin as [H0 _]. apply (proj1 phase0_errs_nil_iff H0 m Hms).
      unfold is_action. rewrite Hr. reflexivity.
    + eapply Forall2_len; exact Hacc.
Qed.

(* every diagnostic names a method / rule / production that has the
   stated defect.  In the DNoMatch and DUnassigned clauses rtl is some rule
   typing that is sound for has_type (typing rtl), not necessarily a total one;
   what lox decides with the types it computed is prod_clause_exact. *)

Definition culprit_ok (d : bdiag) : Prop :=
  match d with
  | DResultCount mid =>
    exists m, In m ms /\ m_id m = mid /\ is_action m = true /\
              List.length (m_results m) <> 1
  | DReturnConflict mid =>
    exists m f r others, In m ms /\ m_id m = mid /\
      group acts r = f :: others /\ In m others /\
      identical o (ret m) (ret f) = false
  | DNoSuchRule mid =>
    exists m r, In m ms /\ m_id m = mid /\ rule_of m = Some r /\
      (forall rl, In rl rules -> br_name rl <> r)
  | DRuleMissingMethod i =>
    (* for a generated rule nothing more is said: no type could be derived *)
    exists rl, nth_error rules i = Some rl /\ br_kind rl <> SPrime /\
      (br_kind rl = NotGenerated -> forall m, In m ms -> rule_of m <> Some (br_name rl))
  | DNoMatch pi =>
    exists p rtl, nth_error prods pi = Some p /\
      kind_of rules (bp_rule p) = NotGenerated /\ typing rtl /\
      (forall m, In m ms -> rule_of m = Some (name_of rules (bp_rule p)) ->
                 ~ accepts rtl m p)
  | DMultipleMatch pi =>
    exists p rtl m1 m2, nth_error prods pi = Some p /\
      kind_of rules (bp_rule p) = NotGenerated /\ typing rtl /\
      In m1 ms /\ In m2 ms /\ m_id m1 <> m_id m2 /\
      rule_of m1 = Some (name_of rules (bp_rule p)) /\
      rule_of m2 = Some (name_of rules (bp_rule p)) /\
      accepts rtl m1 p /\ accepts rtl m2 p
  | DUnassigned mid =>
    exists m rtl, In m ms /\ m_id m = mid /\ is_action m = true /\ typing rtl /\
      (forall pi p, nth_error prods pi = Some p ->
         kind_of rules (bp_rule p) = NotGenerated ->
         ~ (rule_of m = Some (name_of rules (bp_rule p)) /\ accepts rtl m p))
  end.

Lemma phase0_culprit : forall d, In d (phase0_errs ms) -> culprit_ok d.
Proof.
  intros d H. unfold phase0_errs in H. apply in_map_iff in H.
  destruct H as [m [<- Hin]]. apply filter_In in Hin. destruct Hin as [Ha Hb].
  apply in_actions in Ha. destruct Ha as [Hms Hact]. simpl. exists m.
  repeat split; auto. unfold bad_result_count in Hb. apply negb_true_iff in Hb.
  apply Nat.eqb_neq; auto.
Qed.

Lemma phase1_culprit : forall d, In d (phase1_errs o rules acts) -> culprit_ok d.
Proof.
  intros d H. unfold phase1_errs in H. apply in_flat_map in H.
  destruct H as [r [_ H]]. unfold phase1_group in H.
  destruct (group acts r) as [|f others] eqn:Eg; [contradiction|].
  assert (Hconf : In d (map (fun m => DReturnConflict (m_id m))
             (filter (fun m => negb (identical o (ret m) (ret f))) others)) -> culprit_ok d).
  { intros Hd. apply in_map_iff in Hd. destruct Hd as [m [<- Hin]].
    apply filter_In in Hin. destruct Hin as [Hin Hb]. apply negb_true_iff in Hb.
    simpl. exists m, f, r, others. repeat split; auto.
    exact (proj1 (group_cons r f others m Eg (or_intror Hin))). }
  destruct (find_rule rules r) as [j|] eqn:Ef; simpl in H; auto.
  apply in_app_or in H. destruct H as [H|[<-|[]]]; auto.
  simpl. destruct (group_cons r f others f Eg (or_introl eq_refl)) as [Hms Hr].
  exists f, r. repeat split; auto. eapply find_rule_from_none; eauto.
Qed.

Lemma missing_culprit : forall rt d,
  wf_input rules prods ms = true ->
  derive o tok err rules prods (derive_fuel rules) (phase1_types o rules acts) = DvOk rt ->
  In d (missing_rules rules rt) -> culprit_ok d.
Proof.
  intros rt d Hwf Hd H. unfold missing_rules in H. apply in_flat_map in H.
  destruct H as [[i rl] [Hin H]]. simpl in H. apply in_indexed in Hin.
  destruct (is_sprime (br_kind rl)) eqn:Es; [contradiction|].
  destruct (ity_is_nil (rt_get rt i)) eqn:En; [|contradiction].
  destruct H as [<-|[]]. simpl. exists rl. split; auto. split.
  - intros K. rewrite K in Es. discriminate.
  - (* a method of that name would have given the rule a type in phase 1, and
       the fixed point keeps it *)
    intros _ m Hms Hr. apply ity_is_nil_true in En.
    assert (Hg : In m (group acts (br_name rl))) by (apply in_group_iff; auto).
    destruct (group acts (br_name rl)) as [|f others] eqn:Eg; [contradiction|].
    assert (Hnn : rt_get (phase1_types o rules acts) i <> INil)
      by (rewrite (rt0_value i rl f others (wf_names Hwf) Hin Eg); discriminate).
    rewrite <- (derive_mono _ _ _ _ Hd Hnn) in Hnn. contradiction.
Qed.

Lemma phase4_culprit : forall rt d,
  wf_input rules prods ms = true -> rt_final rt ->
  In d (phase4_errs o tok err rules prods rt acts) -> culprit_ok d.
Proof.
  intros rt d Hwf Hfin H.
  assert (Hty : typing (rule_types_of rules rt))
    by (apply rule_types_typing; apply rt_final_sound; auto).
  pose proof H as H'. apply in_phase4_errs in H'. destruct H' as [pi [p [Hup Hd]]].
  apply in_user_prods in Hup. destruct Hup as [Hn Hk].
  destruct (prod_clause_exact rt pi p Hwf Hn Hk) as [C0 [C2 _]].
  destruct Hd as [[-> _]|[-> _]].
  - simpl. exists p, (rule_types_of rules rt). repeat split; auto.
    intros m Hms Hr. apply (proj1 C0 H m). auto.
  - simpl. destruct (proj1 C2 H) as [x [y [[Hx Hrx] [[Hy Hry] [Hne [Hax Hay]]]]]].
    exists p, (rule_types_of rules rt), x, y. repeat split; auto.
Qed.

Lemma unassigned_culprit : forall rt d,
  wf_input rules prods ms = true -> rt_final rt ->
  phase4_errs o tok err rules prods rt acts = [] ->
  In d (unassigned acts (phase4_binding o tok err rules prods rt acts)) -> culprit_ok d.
Proof.
  intros rt d Hwf Hfin Herr H. unfold unassigned in H. apply in_map_iff in H.
  destruct H as [m [<- Hin]]. apply filter_In in Hin. destruct Hin as [Ha Hb].
  apply in_actions in Ha. destruct Ha as [Hms Hact]. apply negb_true_iff in Hb.
  simpl. exists m, (rule_types_of rules rt). repeat split; auto.
  - apply rule_types_typing; apply rt_final_sound; auto.
  - (* the only match of p would be m, and then m is bound *)
    intros pi p Hn Hk [Hr Hacc].
    assert (Hin : In (pi, p) (user_prods rules prods)) by (apply in_user_prods; auto).
    destruct (matches_single rt pi p Herr Hin) as [m' Hm'].
    assert (Hmm : In m (matches o tok err rules rt acts p)).
    { apply (in_matches_accepts rt p m Hwf (nth_error_In _ _ Hn)). auto. }
    rewrite Hm' in Hmm. destruct Hmm as [->|[]].
    rewrite (proj2 (bound_iff rt m (wf_ids Hwf) Hms)) in Hb; [discriminate|eauto].
Qed.

Lemma guard_culprit : forall e k ds,
  guard e k = BErr ds -> (forall d, In d e -> culprit_ok d) ->
  (e = [] -> k = BErr ds -> ds <> [] /\ forall d, In d ds -> culprit_ok d) ->
  ds <> [] /\ forall d, In d ds -> culprit_ok d.
Proof.
  intros [|d0 e] k ds H He Hk; [auto|]. unfold guard in H. injection H as <-. split.
  - intros Hs. apply (in_nil (a := d0)). rewrite <- Hs.
    change (In d0 (sort_diags (d0 :: e))). apply in_sort_diags. left. reflexivity.
  - intros d Hd. apply He. apply in_sort_diags. exact Hd.
Qed.

Theorem diagnostic_names_culprit : forall ds,
  assign_actions o tok err rules prods ms = BErr ds ->
  ds <> [] /\ forall d, In d ds -> culprit_ok d.
Proof.
  intros ds H. unfold assign_actions in H.
  destruct (wf_input rules prods ms) eqn:Hwf; [|discriminate].
  rewrite assign_actions_wf_guard in H.
  apply (guard_culprit _ _ _ H phase0_culprit). clear H. intros E0 H.
  apply (guard_culprit _ _ _ H phase1_culprit). clear H. intros E1 H.
  destruct (derive o tok err rules prods (derive_fuel rules) (phase1_types o rules acts))
    as [s| |rt] eqn:Ed; try discriminate.
  apply (guard_culprit _ _ _ H (fun d => missing_culprit rt d Hwf Ed)). clear H. intros E3 H.
  destruct (phase4_panics o tok err rules prods rt acts); [discriminate|].
  assert (Hfin : rt_final rt) by (unfold rt_final; auto).
  apply (guard_culprit _ _ _ H (fun d => phase4_culprit rt d Hwf Hfin)). clear H. intros E4 H.
  apply (guard_culprit _ _ _ H (fun d => unassigned_culprit rt d Hwf Hfin E4)).
  intros _ H'. discriminate.
Qed.

End Proofs.

(* DZero is only meant for non-interface types (zero_of never builds another) *)
Definition wf_dyn (o : oracle) (v : dyn) : Prop :=
  match v with DZero t => is_interface o t = false | _ => True end.

(* casting to the static type the value was produced at always gives the
   value back *)
Theorem cast_to_term_type_delivers : forall o S v,
  wf_dyn o v -> has_static_type o S v = true -> cast o S v = v.
Proof.
  intros o S v Hwf H. unfold has_static_type in H. unfold cast.
  destruct v as [|t x|t]; simpl in *.
  - unfold zero_of. rewrite H. reflexivity.
  - destruct (is_interface o S); rewrite H; reflexivity.
  - rewrite Hwf in *. destruct (is_interface o S); rewrite H; reflexivity.
Qed.

Theorem cast_delivers_when_identical : forall o T t x,
  is_interface o T = false -> identical o t T = true ->
  cast o T (DVal t x) = DVal t x.
Proof.
  intros o T t x Hi Hid. apply cast_to_term_type_delivers; [exact I|].
  unfold has_static_type. simpl. rewrite Hi. exact Hid.
Qed.

(* same, with the side condition moved to the oracle: identical types are
   both interfaces or both not, and a dynamic type is never an interface *)
Corollary cast_delivers_when_identical' : forall o T t x,
  (forall a b, identical o a b = true -> is_interface o a = is_interface o b) ->
  is_interface o t = false -> identical o t T = true ->
  cast o T (DVal t x) = DVal t x.
Proof.
  intros o T t x Hcompat Ht Hid. apply cast_delivers_when_identical; auto.
  rewrite <- (Hcompat _ _ Hid). auto.
Qed.

Theorem cast_interface_delivers : forall o T t x,
  is_interface o T = true -> implements o t T = true ->
  cast o T (DVal t x) = DVal t x.
Proof.
  intros o T t x Hi Himp. apply cast_to_term_type_delivers; [exact I|].
  unfold has_static_type. simpl. rewrite Hi. exact Himp.
Qed.

(* param_value_old (the template before commit 156a4e1) casts to the type of
   parameter i of method m *)
Corollary param_value_old_delivers : forall o m i t x,
  let T := nth i (m_params m) 0 in
  (is_interface o T = false /\ identical o t T = true) \/
  (is_interface o T = true /\ implements o t T = true) ->
  param_value_old o m i (DVal t x) = DVal t x.
Proof.
  intros o m i t x T [[H1 H2]|[H1 H2]]; unfold param_value_old; fold T.
  - apply cast_delivers_when_identical; auto.
  - apply cast_interface_delivers; auto.
Qed.

Corollary param_value_delivers : forall o S v,
  wf_dyn o v -> has_static_type o S v = true -> param_value o S v = v.
Proof. intros. unfold param_value. apply cast_to_term_type_delivers; auto. Qed.

Corollary cast_to_own_type_delivers : forall o S x,
  (forall a, identical o a a = true) -> is_interface o S = false ->
  param_value o S (DVal S x) = DVal S x.
Proof.
  intros o S x Hrefl Hi. unfold param_value.
  apply cast_delivers_when_identical; auto.
Qed.

Lemma rule_types_nodup : forall rules rt, NoDup (map fst (rule_types_of rules rt)).
Proof.
  intros rules rt. unfold rule_types_of. apply nodup_flat_map_fst.
  - apply indexed_nodup.
  - intros [i r] _. simpl. destruct (ity_ty (rt_get rt i)); eauto.
Qed.

Lemma rtl_get_in : forall rtl i s,
  NoDup (map fst rtl) -> In (i, s) rtl -> rtl_get rtl i = Some s.
Proof.
  induction rtl as [|[j t] rtl IH]; simpl; intros i s Hnd Hin; [contradiction|].
  inversion Hnd; subst. destruct Hin as [Hin|Hin].
  - inversion Hin; subst. rewrite Nat.eqb_refl. reflexivity.
  - destruct (j =? i) eqn:E.
    + apply Nat.eqb_eq in E. subst j. exfalso. apply H1.
      apply in_map_iff. exists (i, s). auto.
    + apply IH; auto.
Qed.

Lemma term_go_type_has_ty : forall tok err rtl t s,
  NoDup (map fst rtl) -> term_has_ty tok err rtl t s ->
  term_go_type tok err rtl t = Some s.
Proof.
  intros tok err rtl [[|] i] s Hnd H; unfold term_has_ty, term_go_type in *; simpl in *.
  - congruence.
  - apply rtl_get_in; auto.
Qed.

(* v is a value an expression of the term's registered type can hold *)
Definition produced_for (o : oracle) (tok err : ty) (rtl : list (nat * ty))
           (t : bool * nat) (v : dyn) : Prop :=
  exists s, term_has_ty tok err rtl t s /\ wf_dyn o v /\ has_static_type o s v = true.

Lemma action_args_id : forall o tok err rtl terms vs,
  NoDup (map fst rtl) -> Forall2 (produced_for o tok err rtl) terms vs ->
  action_args o tok err rtl terms vs = vs.
Proof.
  intros o tok err rtl terms vs Hnd H.
  induction H as [|t v terms vs [s [Hs [Hw Hst]]] _ IH]; simpl; auto.
  rewrite (term_go_type_has_ty _ _ _ _ _ Hnd Hs).
  rewrite param_value_delivers by assumption. f_equal. exact IH.
Qed.

Theorem values_flow : forall o tok err rules prods ms b rtl,
  assign_actions o tok err rules prods ms = BOk b rtl ->
  forall pi p, nth_error prods pi = Some p -> kind_of rules (bp_rule p) = NotGenerated ->
  exists m, In m ms /\ In (pi, m_id m) b /\
    (* the call type-checks: each term's type is assignable to the parameter *)
    accepts o tok err rtl m p /\
    (* and whatever was produced for the terms is what the action receives *)
    forall vs, Forall2 (produced_for o tok err rtl) (bp_terms p) vs ->
      List.length vs = List.length (m_params m) /\
      action_args o tok err rtl (bp_terms p) vs = vs.
Proof.
  intros o tok err rules prods ms b rtl H pi p Hn Hk.
  destruct (binding_unique o tok err rules prods ms b rtl H) as [_ [_ [_ Hall]]].
  destruct (Hall pi p Hn Hk) as [m [Hms [Hb [_ [_ [_ [Hlen Hacc]]]]]]].
  exists m. split; auto. split; auto. split; auto. intros vs Hvs. split.
  - apply Forall2_len in Hvs. congruence.
  - apply assign_ok_inv in H. destruct H as [_ [rt [_ [_ [_ [_ [_ ->]]]]]]].
    apply action_args_id; auto. apply rule_types_nodup.
Qed.

(* Defect D6: the template before commit 156a4e1 (param_value_old) handed a
   zero value to the action.
   Types: 0 = Expr, 1 = []Expr, 2 = `type Exprs []Expr`, 10 = Token,
   11 = error.  []Expr is assignable to Exprs (identical underlying types,
   one side not named) but not identical to it.
   Grammar: s = x+ ; x = A.   Methods: on_s(xs Exprs) Expr; on_x(a Token) Expr. *)

Definition ex_o : oracle := {|
  identical := Nat.eqb;
  assignable := fun v t => Nat.eqb v t || (Nat.eqb v 1 && Nat.eqb t 2) || (Nat.eqb v 2 && Nat.eqb t 1);
  slice_of := fun t => match t with 0 => 1 | _ => 100 + t end;
  is_interface := fun _ => false;
  implements := fun _ _ => false |}.

Definition ex_rules : list brule := [
  {| br_name := "S'"; br_kind := SPrime; br_prods := [0] |};
  {| br_name := "s"; br_kind := NotGenerated; br_prods := [1] |};
  {| br_name := "x"; br_kind := NotGenerated; br_prods := [2] |};
  {| br_name := "x+"; br_kind := OneOrMore; br_prods := [3; 4] |} ].

Definition ex_prods : list bprod := [
  {| bp_rule := 0; bp_terms := [(false, 1)] |};
  {| bp_rule := 1; bp_terms := [(false, 3)] |};
  {| bp_rule := 2; bp_terms := [(true, 2)] |};
  {| bp_rule := 3; bp_terms := [(false, 3); (false, 2)] |};
  {| bp_rule := 3; bp_terms := [(false, 2)] |} ].

Definition ex_on_s : meth := {| m_id := 0; m_name := "on_s"; m_params := [2]; m_results := [0] |}.
Definition ex_on_x : meth := {| m_id := 1; m_name := "on_x"; m_params := [10]; m_results := [0] |}.

Example cast_zero_refuted :
  (* lox accepts: production 1 (s = x+) is bound to on_s, the term x+ has type []Expr *)
  assign_actions ex_o 10 11 ex_rules ex_prods [ex_on_s; ex_on_x]
    = BOk [(1, 0); (2, 1)] [(1, 0); (2, 0); (3, 1)] /\
  (* because []Expr is assignable to the parameter type Exprs ... *)
  assignable ex_o 1 (nth 0 (m_params ex_on_s) 0) = true /\
  (* ... which is neither an interface nor identical to []Expr *)
  is_interface ex_o 2 = false /\ identical ex_o 1 2 = false /\
  (* so with the old template the action received the zero value *)
  (forall x, param_value_old ex_o ex_on_s 0 (DVal 1 x) = DZero 2) /\
  (* while the current template (cast to the term's own type) delivers it *)
  (forall x, param_value ex_o 1 (DVal 1 x) = DVal 1 x) /\
  (forall x, action_args ex_o 10 11 [(1, 0); (2, 0); (3, 1)] [(false, 3)] [DVal 1 x] = [DVal 1 x]).
Proof. repeat split; vm_compute; reflexivity. Qed.

(* `@error+`: the rule ERROR+ is registered as []<error type> (commit e7bf6de;
   before it, as []Token), which is also what the one_or_more template builds.
   A []Error parameter is accepted and receives the list; a []Token parameter
   is refused with a diagnostic.
   Types: 10 Token, 11 error, 110 []Token, 111 []error. *)
Definition ex2_o : oracle := {|
  identical := Nat.eqb; assignable := Nat.eqb; slice_of := fun t => 100 + t;
  is_interface := fun _ => false; implements := fun _ _ => false |}.

Definition ex2_rules : list brule := [
  {| br_name := "S'"; br_kind := SPrime; br_prods := [0] |};
  {| br_name := "s"; br_kind := NotGenerated; br_prods := [1] |};
  {| br_name := "ERROR+"; br_kind := OneOrMore; br_prods := [2; 3] |} ].

Definition ex2_prods : list bprod := [
  {| bp_rule := 0; bp_terms := [(false, 1)] |};
  {| bp_rule := 1; bp_terms := [(false, 2)] |};
  {| bp_rule := 2; bp_terms := [(false, 2); (true, 1)] |};
  {| bp_rule := 2; bp_terms := [(true, 1)] |} ].

Definition ex2_on_s (param : ty) : meth :=
  {| m_id := 0; m_name := "on_s"; m_params := [param]; m_results := [10] |}.

Example error_plus_fixed :
  assign_actions ex2_o 10 11 ex2_rules ex2_prods [ex2_on_s 111] = BOk [(1, 0)] [(1, 10); (2, 111)] /\
  assign_actions ex2_o 10 11 ex2_rules ex2_prods [ex2_on_s 110] = BErr [DNoMatch 1] /\
  registered_elem_type 10 11 [] (true, 1) = IT 11 /\
  built_elem_type 10 11 [] (true, 1) = IT 11 /\
  (forall x, action_args ex2_o 10 11 [(1, 10); (2, 111)] [(false, 2)]
                         [DVal (slice_of ex2_o 11) x] = [DVal 111 x]).
Proof. repeat split; vm_compute; reflexivity. Qed.

Print Assumptions binding_unique.
Print Assumptions diagnostic_names_culprit.
Print Assumptions cast_delivers_when_identical.
Print Assumptions cast_interface_delivers.
Print Assumptions cast_to_term_type_delivers.
Print Assumptions values_flow.
Print Assumptions cast_zero_refuted.
Print Assumptions error_plus_fixed.

