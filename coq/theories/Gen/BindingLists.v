(* The small functions of Binding.v (indexed, sort_diags, find_rule, rt_get, the
   boolean checks of wf_input) as the proofs about assign_actions use them. *)
From Coq Require Import List Arith Bool Lia.
From Lox Require Import Base.ListFacts Gen.Binding.
Import ListNotations.

Lemma in_indexed : forall A (l : list A) i x,
  In (i, x) (indexed l) <-> nth_error l i = Some x.
Proof.
  intros. unfold indexed. rewrite in_combine_seq. rewrite Nat.sub_0_r.
  split; [tauto|]. intros; split; [lia|auto].
Qed.

Lemma indexed_fst : forall A (l : list A), map fst (indexed l) = seq 0 (List.length l).
Proof. intros. unfold indexed. apply map_fst_combine. apply seq_length. Qed.

Lemma indexed_nodup : forall A (l : list A), NoDup (map fst (indexed l)).
Proof. intros. rewrite indexed_fst. apply seq_NoDup. Qed.

Lemma keys_flat_map_fst : forall A B (f : nat * A -> list (nat * B)) l,
  (forall x, In x l -> f x = [] \/ exists y, f x = [(fst x, y)]) ->
  forall k, In k (map fst (flat_map f l)) -> In k (map fst l).
Proof.
  induction l as [|a l IH]; simpl; intros H k Hin; auto.
  rewrite map_app in Hin. apply in_app_or in Hin. destruct Hin as [Hin|Hin].
  - destruct (H a (or_introl eq_refl)) as [E|[y E]]; rewrite E in Hin; simpl in Hin.
    + contradiction.
    + destruct Hin as [<-|[]]. auto.
  - right. apply IH; auto.
Qed.

Lemma nodup_flat_map_fst : forall A B (f : nat * A -> list (nat * B)) l,
  NoDup (map fst l) ->
  (forall x, In x l -> f x = [] \/ exists y, f x = [(fst x, y)]) ->
  NoDup (map fst (flat_map f l)).
Proof.
  induction l as [|a l IH]; simpl; intros Hnd H; [constructor|].
  inversion Hnd; subst. rewrite map_app.
  destruct (H a (or_introl eq_refl)) as [E|[y E]]; rewrite E; simpl.
  - apply IH; auto.
  - constructor.
    + intros Hin. apply H2. eapply keys_flat_map_fst; eauto.
    + apply IH; auto.
Qed.

Lemma in_insert_diag : forall d x l, In d (insert_diag x l) <-> d = x \/ In d l.
Proof.
  induction l as [|y l IH]; simpl.
  - intuition.
  - destruct (diag_leb x y); simpl.
    + intuition.
    + rewrite IH. intuition.
Qed.

Lemma in_sort_diags : forall d l, In d (sort_diags l) <-> In d l.
Proof.
  induction l as [|x l IH]; simpl; [tauto|].
  rewrite in_insert_diag, IH. intuition.
Qed.

Lemma nodup_natb_sound : forall l, nodup_natb l = true -> NoDup l.
Proof.
  induction l as [|x l IH]; simpl; intros H; [constructor|].
  apply andb_prop in H. destruct H as [H1 H2]. constructor; auto.
  intros Hin. apply negb_true_iff in H1.
  assert (existsb (Nat.eqb x) l = true).
  { apply existsb_exists. exists x. split; auto. apply Nat.eqb_refl. }
  congruence.
Qed.

Lemma nodup_strb_sound : forall l, nodup_strb l = true -> NoDup l.
Proof.
  induction l as [|x l IH]; simpl; intros H; [constructor|].
  apply andb_prop in H. destruct H as [H1 H2]. constructor; auto.
  intros Hin. apply negb_true_iff in H1.
  assert (existsb (String.eqb x) l = true).
  { apply existsb_exists. exists x. split; auto. apply String.eqb_refl. }
  congruence.
Qed.

Lemma find_rule_from_some : forall rules s name j,
  find_rule_from s rules name = Some j ->
  s <= j /\ exists r, nth_error rules (j - s) = Some r /\ br_name r = name.
Proof.
  induction rules as [|r rules IH]; simpl; intros s name j H; [discriminate|].
  destruct (find_rule_from (S s) rules name) as [j'|] eqn:E.
  - inversion H; subst. apply IH in E. destruct E as [Hle [r' [Hn Hname]]].
    split; [lia|]. exists r'. split; auto.
    replace (j - s) with (S (j - S s)) by lia. exact Hn.
  - destruct (String.eqb (br_name r) name) eqn:En; [|discriminate].
    inversion H; subst. split; [lia|]. exists r. rewrite Nat.sub_diag. split; auto.
    apply String.eqb_eq; auto.
Qed.

Lemma find_rule_from_none : forall rules s name,
  find_rule_from s rules name = None -> forall r, In r rules -> br_name r <> name.
Proof.
  induction rules as [|r rules IH]; simpl; intros s name H r0 Hin; [contradiction|].
  destruct (find_rule_from (S s) rules name) eqn:E; [discriminate|].
  destruct (String.eqb (br_name r) name) eqn:En; [discriminate|].
  destruct Hin as [<-|Hin].
  - apply String.eqb_neq; auto.
  - eapply IH; eauto.
Qed.

Lemma find_rule_some : forall rules name j,
  find_rule rules name = Some j ->
  exists r, nth_error rules j = Some r /\ br_name r = name.
Proof.
  unfold find_rule. intros rules name j H. apply find_rule_from_some in H.
  rewrite Nat.sub_0_r in H. tauto.
Qed.

Lemma nodup_names_index : forall (rules : list brule) i j r r',
  NoDup (map br_name rules) ->
  nth_error rules i = Some r -> nth_error rules j = Some r' ->
  br_name r = br_name r' -> i = j.
Proof.
  intros rules i j r r' Hnd Hi Hj Hn.
  assert (Hi' : nth_error (map br_name rules) i = Some (br_name r)) by (apply map_nth_error; auto).
  assert (Hj' : nth_error (map br_name rules) j = Some (br_name r')) by (apply map_nth_error; auto).
  rewrite <- Hn in Hj'.
  eapply (proj1 (NoDup_nth_error (map br_name rules))); eauto.
  - apply nth_error_Some. congruence.
  - congruence.
Qed.

Lemma find_rule_complete : forall rules k rl,
  NoDup (map br_name rules) -> nth_error rules k = Some rl ->
  find_rule rules (br_name rl) = Some k.
Proof.
  intros rules k rl Hnd Hn. destruct (find_rule rules (br_name rl)) as [j|] eqn:Ef.
  - pose proof Ef as Ef'. apply find_rule_some in Ef'. destruct Ef' as [r' [Hn' Hname']].
    f_equal. eapply nodup_names_index; eauto.
  - exfalso. eapply (find_rule_from_none _ _ _ Ef rl); eauto. eapply nth_error_In; eauto.
Qed.

Lemma rt_get_in : forall rt i x, rt_get rt i = x -> x <> INil -> In (i, x) rt.
Proof.
  induction rt as [|[j t] rt IH]; simpl; intros i x H Hx; [congruence|].
  destruct (j =? i) eqn:E.
  - apply Nat.eqb_eq in E. subst. auto.
  - right. apply IH; auto.
Qed.

Lemma rt_get_nonnil : forall rt i x,
  (forall e, In e rt -> snd e <> INil) -> In (i, x) rt -> rt_get rt i <> INil.
Proof.
  induction rt as [|[j t] rt IH]; simpl; intros i x Hall Hin; [contradiction|].
  destruct (j =? i) eqn:E.
  - apply (Hall (j, t)). auto.
  - destruct Hin as [Hin|Hin].
    + inversion Hin; subst. rewrite Nat.eqb_refl in E. discriminate.
    + eapply IH; eauto.
Qed.

Lemma ity_is_nil_true : forall t, ity_is_nil t = true <-> t = INil.
Proof. destruct t; simpl; split; intros; congruence. Qed.

Lemma ity_is_nil_false : forall t, ity_is_nil t = false <-> t <> INil.
Proof. destruct t; simpl; split; congruence. Qed.

Lemma is_user_true : forall k, is_user k = true <-> k = NotGenerated.
Proof. destruct k; simpl; split; intros; congruence. Qed.

Lemma is_sprime_true : forall k, is_sprime k = true <-> k = SPrime.
Proof. destruct k; simpl; split; intros; congruence. Qed.
