(* Token numbering: which integer constant each terminal gets.

   lr1.NewGrammar adds the terminals EOF then ERROR; Grammar.AddTerminal
   appends with Index = len(Terminals).  Pass CreateNames (ast/spec.go ->
   unit.go -> statements, in order; ast/lexer_mode.go runs the pass over a
   mode's rules where the mode statement appears) calls AddTerminal for every
   token rule (ast/lexer_token_rule.go) and every @external name
   (ast/external_rule.go).  emit_base.go then emits `Name int = i` for the
   i-th terminal and _TokenToString, a switch over those constants whose
   default is "???".  (lr1.Terminal.Alias is never assigned anywhere in the
   tree, so the `t.Alias != "" ? t.Alias : t.Name` in the template is always
   t.Name.)

   The model covers specifications that pass CreateNames without error: a
   reserved name (EOF, ERROR), a malformed name or a redefinition is reported
   as an error, the terminal is not added, and no code is generated.
   Definitions and one computed example; theorems in NumberingProofs.v. *)
From Coq Require Import List ZArith String Bool.
Import ListNotations.
Local Open Scope string_scope.

Inductive decl :=
| DTok (name : string)            (* token rule: NAME = expr *)
| DExt (names : list string)      (* @external A B C *)
| DMode (body : list decl)        (* @mode m { ... } *)
| DOther.                         (* @macro, @frag, parser rule, ...: no terminal *)

(* the AddTerminal calls made while visiting one declaration, in order *)
Fixpoint decl_names (d : decl) : list string :=
  match d with
  | DTok n => [n]
  | DExt ns => ns
  | DMode body => flat_map decl_names body
  | DOther => []
  end.

Definition decls_names (ds : list decl) : list string := flat_map decl_names ds.

(* files (units) in order, statements in order *)
Definition spec_names (files : list (list decl)) : list string := flat_map decls_names files.

Definition terminals (files : list (list decl)) : list string :=
  "EOF" :: "ERROR" :: spec_names files.

(* the value of the constant emitted for name n: its position in Terminals *)
Fixpoint index_of (ts : list string) (n : string) : option nat :=
  match ts with
  | [] => None
  | x :: rest => if String.eqb x n then Some O else option_map S (index_of rest n)
  end.

(* _TokenToString *)
Definition token_to_string (ts : list string) (t : Z) : string :=
  if (t <? 0)%Z then "???"
  else match nth_error ts (Z.to_nat t) with
       | Some n => n
       | None => "???"
       end.

Example numbering_example :
  let ts := terminals [[DTok "NUM"; DOther; DMode [DTok "STR"; DOther; DTok "ESC"]; DExt ["A"; "B"]];
                       [DOther; DTok "ID"]] in
  ts = ["EOF"; "ERROR"; "NUM"; "STR"; "ESC"; "A"; "B"; "ID"] /\
  index_of ts "ESC" = Some 4%nat /\ index_of ts "ID" = Some 7%nat /\ index_of ts "X" = None /\
  token_to_string ts 4 = "ESC" /\ token_to_string ts 8 = "???" /\ token_to_string ts (-1) = "???".
Proof. vm_compute. repeat split; reflexivity. Qed.
