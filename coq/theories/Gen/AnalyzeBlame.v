(* A3 for the model of lox's semantic analysis (Gen/Analyze.v): every
   diagnostic of [analyze s] is the general error (KStartUndefined, None) or
   names a declaration that has a fault of the class of its kind ([fault_in]).
   Two classes to note: KRedefined blames the LATER declaration of a name (or an
   @external naming it twice); KMacroCycle blames the macro that is re-entered,
   not necessarily the one whose check found the cycle. *)
From Coq Require Import List String ZArith Bool.
From Lox Require Import Base.ListFacts Gen.Analyze Gen.AnalyzeProofs.
Import ListNotations.

Definition dnames (ds : list decl) : list string := map fst (flat_map own_names ds).

Definition fault1 (k : dkind) (N : list string) (S : bool) (d : decl) : Prop :=
  match k with
  | KBadName | KReservedName => lexical_name_ok d = false
  | KRedefined => (exists n, In n (dnames [d]) /\ In n N) \/ nodupb (dnames [d]) = false
  | KStartRedefined => is_start d = true /\ S = true
  | _ => False
  end.

Lemma uniq_from_false l : forall seen,
  uniq_from seen l = false -> (exists n, In n l /\ In n seen) \/ nodupb l = false.
Proof.
  induction l as [|x r IH]; intros seen; simpl; [discriminate|].
  rewrite andb_false_iff, negb_false_iff. intros [H|H].
  - left. exists x. split; [left; reflexivity|apply mem_str_In; exact H].
  - destruct (IH _ H) as [[n [H1 H2]]|H1].
    + apply in_app_or in H2. destruct H2 as [H2|[<-|[]]].
      * left. exists n. auto.
      * right. apply mem_str_In in H1. rewrite H1. reflexivity.
    + right. rewrite H1. apply andb_false_r.
Qed.

Lemma dnames_one d : dnames [d] = map fst (own_names d).
Proof. unfold dnames. simpl. rewrite app_nil_r. reflexivity. Qed.

Lemma run_fault_fault1 N S d k : run_fault N S d k -> fault1 k N S d.
Proof.
  destruct k; simpl; auto. rewrite dnames_one. apply uniq_from_false.
Qed.

Definition fault_of (s : spec) (k : dkind) (pre : list decl) (d : decl) : Prop :=
  match k with
  | KBadName | KReservedName | KRedefined | KStartRedefined =>
      fault1 k (dnames pre) (existsb is_start pre) d
  | KUndefined | KNotAToken | KNotAMacro | KNotRuleOrToken => decl_refs_ok (canon s) d = false
  | KUnknownAlias | KAmbiguousAlias => decl_aliases_ok (canon s) d = false
  | KUndefinedMode => decl_modes_ok (canon s) d = false
  | KEmptyLiteral => decl_literals_ok d = false
  | KBadRange => forallb atom_ranges_ok (decl_atoms d) = false
  | KListEntryNotSimple | KListSepNotSimple => decl_lists_ok d = false
  | KTokenDiscard | KTokenEmit => decl_token_actions_ok d = false
  | KFragTwoDiscard | KFragTwoEmit | KFragDiscardAndEmit => decl_frag_actions_ok d = false
  | KMacroCycle =>
      (exists n e, d = DMacro (decl_id d) n e) /\ macro_acyclic (n_names (canon s)) d = false
  | KStartUndefined | KOther => False
  end.

Definition fault_in (s : spec) (k : dkind) (i : nat) : Prop :=
  exists pre d post, all_decls s = pre ++ d :: post /\ decl_id d = i /\ fault_of s k pre d.

Lemma pass_names_blame s st dg k oi :
  pass_names s = (st, dg) -> In (k, oi) dg -> exists i, oi = Some i /\ fault_in s k i.
Proof.
  intros H Hin. destruct (run_pass_names s) as [[_ [_ R]] _]. rewrite H in R.
  destruct (R k oi Hin) as [pre [d [post [E1 [E2 E3]]]]].
  exists (decl_id d). split; [exact E2|]. exists pre, d, post. split; [exact E1|].
  split; [reflexivity|]. apply run_fault_fault1 in E3.
  destruct k; simpl in *; try contradiction; exact E3.
Qed.

Definition cycle_blame (tbl : names) (k : dkind) (oi : option nat) : Prop :=
  k = KMacroCycle /\ exists mid n body, oi = Some mid /\ In (n, EMacro mid body) tbl /\
    acyclic_atoms tbl (List.length tbl) [n] (lexpr_atoms body) = false.

Section Cycle.
Variable tbl : names.

Inductive reach : string -> lterm -> Prop :=
| reach_here m id body a :
    lookup m tbl = Some (EMacro id body) -> In a (lexpr_atoms body) -> reach m a
| reach_step m id body x a :
    lookup m tbl = Some (EMacro id body) -> In (LRef x) (lexpr_atoms body) -> reach x a ->
    reach m a.

Lemma reach_snoc m n id body a' :
  reach m (LRef n) -> lookup n tbl = Some (EMacro id body) -> In a' (lexpr_atoms body) ->
  reach m a'.
Proof.
  intros H El Ha. remember (LRef n) as a eqn:Ea.
  induction H as [m i b a Em Hin|m i b x a Em Hin _ IH]; subst a.
  - exact (reach_step m i b n a' Em Hin (reach_here n id body a' El Ha)).
  - exact (reach_step m i b x a' Em Hin (IH eq_refl)).
Qed.

(* the expansion of [m]'s body reports something at the latest when it meets the
   reference to the stacked [n] *)
Lemma reach_reports n idn bodyn : lookup n tbl = Some (EMacro idn bodyn) ->
  forall m, reach m (LRef n) -> forall idm bodym stk fuel,
  lookup m tbl = Some (EMacro idm bodym) -> In n stk ->
  flat_map (expand_atom tbl fuel stk) (lexpr_atoms bodym) <> [].
Proof.
  intros Eln m H. remember (LRef n) as a eqn:Ea.
  induction H as [m i b a Em Hin|m i b x a Em Hin Hx IH]; subst a;
    intros idm bodym stk fuel Elm Hn; rewrite Em in Elm; inversion Elm; subst i b;
    apply (flat_map_not_nil _ _ _ Hin).
  - destruct fuel; simpl; rewrite Eln; apply mem_str_In in Hn; rewrite Hn; discriminate.
  - assert (Hm : exists idx bodyx, lookup x tbl = Some (EMacro idx bodyx))
      by (inversion Hx; eauto).
    destruct Hm as [idx [bodyx Elx]].
    destruct fuel; simpl; rewrite Elx; destruct (mem_str x stk); try discriminate.
    apply (IH eq_refl idx bodyx (x :: stk) fuel Elx). right. exact Hn.
Qed.

(* every macro being expanded (the stack) reaches the atom now at hand; so a
   reference to a stacked macro closes a cycle through that macro *)
Definition inv (stk : list string) (a : lterm) : Prop := forall m, In m stk -> reach m a.

Lemma expand_atom_cycle : forall fuel stk a k oi,
  stk_ok tbl fuel stk -> inv stk a ->
  In (k, oi) (expand_atom tbl fuel stk a) ->
  cycle_blame tbl k oi.
Proof.
  induction fuel as [|f IH]; intros stk a k oi Hok Hinv.
  - destruct (stk_ok_0 _ _ Hok).
  - destruct a as [cps|n|c|alts]; simpl; try contradiction.
    destruct (lookup n tbl) as [[id|mid body|id|id|id]|] eqn:El; try contradiction.
    destruct (mem_str n stk) eqn:Em.
    + intros [X|[]]. inversion X; subst. split; [reflexivity|]. exists mid, n, body.
      split; [reflexivity|]. split; [apply lookup_In; exact El|].
      apply mem_str_In in Em.
      pose proof (reach_reports n mid body El n (Hinv n Em) mid body [n] (List.length tbl) El
                    (or_introl eq_refl)) as W.
      unfold acyclic_atoms. destruct (flat_map _ _); [contradiction W; reflexivity|reflexivity].
    + intros H. apply in_flat_map in H. destruct H as [a' [Ha' H]].
      apply (IH (n :: stk) a' k oi (stk_ok_push _ _ _ _ _ Hok El Em)); [|exact H].
      intros m [X|X].
      * subst m. exact (reach_here n mid body a' El Ha').
      * exact (reach_snoc m n mid body a' (Hinv m X) El Ha').
Qed.

Lemma expand_lexpr_cycle e k oi :
  In (k, oi) (expand_lexpr tbl e) ->
  cycle_blame tbl k oi.
Proof.
  unfold expand_lexpr. intros H. apply in_flat_map in H. destruct H as [a [_ H]].
  apply (expand_atom_cycle (expand_fuel tbl) [] a k oi (stk_ok_nil tbl)); [|exact H].
  intros m [].
Qed.

(* the walk of the Check pass: from macro [n] itself *)
Lemma macro_walk_cycle n id e k oi :
  lookup n tbl = Some (EMacro id e) ->
  In (k, oi) (flat_map (expand_atom tbl (List.length tbl) [n]) (lexpr_atoms e)) ->
  cycle_blame tbl k oi.
Proof.
  intros El H. apply in_flat_map in H. destruct H as [a [Ha H]].
  apply (expand_atom_cycle (List.length tbl) [n] a k oi); [| |exact H].
  - apply stk_ok_one. apply lookup_In in El. exact (in_map fst _ _ El).
  - intros m [X|[]]. subst m. exact (reach_here n id e a El Ha).
Qed.
End Cycle.

Definition check_fault (st : nstate) (k : dkind) (d : decl) : Prop :=
  match k with
  | KUndefined | KNotAToken | KNotAMacro | KNotRuleOrToken => decl_refs_ok st d = false
  | KUnknownAlias | KAmbiguousAlias => decl_aliases_ok st d = false
  | KUndefinedMode => decl_modes_ok st d = false
  | KEmptyLiteral => decl_literals_ok d = false
  | KBadRange => forallb atom_ranges_ok (decl_atoms d) = false
  | KListEntryNotSimple | KListSepNotSimple => decl_lists_ok d = false
  | _ => False
  end.

Lemma refs_atom st d a :
  In a (decl_atoms d) -> atom_ref_ok st a = false -> decl_refs_ok st d = false.
Proof.
  destruct d; simpl; try contradiction; unfold decl_atoms; simpl; intros Ha H;
    rewrite (forallb_false_in _ _ a Ha H); reflexivity.
Qed.

Lemma lits_atom d a : In a (decl_atoms d) -> atom_lit_ok a = false -> decl_literals_ok d = false.
Proof.
  intros Ha H. unfold decl_literals_ok. rewrite (forallb_false_in _ _ a Ha H). reflexivity.
Qed.

Lemma ck_atom_blame st d a : In a (decl_atoms d) ->
  blames (decl_id d) (fun k => check_fault st k d) (ck_atom st (decl_id d) a).
Proof.
  intros Ha. destruct a as [cps|n|c|alts]; simpl; auto using blames_nil.
  - destruct cps; auto using blames_nil. apply blames_one. exact (lits_atom d _ Ha eq_refl).
  - pose proof (refs_atom st d (LRef n) Ha) as R. simpl in R.
    destruct (lookup n (n_names st)) as [[]|]; auto using blames_nil;
      apply blames_one; simpl; auto.
  - apply blames_flat_map. intros it Hit. unfold ck_range.
    destruct (snd it <? fst it)%Z eqn:E; auto using blames_nil. apply blames_one. simpl.
    apply (forallb_false_in _ _ _ Ha). simpl. apply (forallb_false_in _ _ it Hit).
    rewrite Z.ltb_antisym in E. apply negb_true_iff in E. exact E.
Qed.

Lemma ck_lexpr_blame st d e : decl_expr d = Some e ->
  blames (decl_id d) (fun k => check_fault st k d) (ck_lexpr st (decl_id d) e).
Proof.
  intros E. apply blames_flat_map. intros a Ha. apply ck_atom_blame.
  unfold decl_atoms. rewrite E. exact Ha.
Qed.

Lemma ck_action_blame st d a :
  (action_ref_ok st a = false -> decl_refs_ok st d = false) ->
  (action_mode_ok st a = false -> decl_modes_ok st d = false) ->
  blames (decl_id d) (fun k => check_fault st k d) (ck_action st (decl_id d) a).
Proof.
  intros Hr Hm. destruct a as [|m| |t]; simpl in *; auto using blames_nil.
  - destruct (mem_str m (n_modes st)); auto using blames_nil. apply blames_one. simpl. auto.
  - destruct (lookup t (n_names st)) as [[]|]; auto using blames_nil;
      apply blames_one; simpl; auto.
Qed.

(* [F] is abstract so that the induction can pass from a @list to its arguments:
   a failed clause of an argument is a failed clause of the @list *)
Lemma ck_pterm_blame st id (F : dkind -> Prop) t :
  (pterm_ref_ok st t = false -> F KUndefined /\ F KNotRuleOrToken) ->
  (pterm_alias_ok st t = false -> F KUnknownAlias /\ F KAmbiguousAlias) ->
  (pterm_lists_ok t = false -> F KListEntryNotSimple /\ F KListSepNotSimple) ->
  (pterm_lit_ok t = false -> F KEmptyLiteral) ->
  blames id F (ck_pterm st id t).
Proof.
  induction t as [n|lit| |c kk IH|e IHe sp IHsp opt]; simpl; intros Hr Ha Hl He;
    auto using blames_nil.
  - destruct (lookup n (n_names st)) as [[]|]; auto using blames_nil;
      apply blames_one; apply Hr; reflexivity.
  - destruct (String.eqb lit ""); simpl in *; [apply blames_one; auto|].
    destruct (count_str lit (n_aliases st)) as [|[|c]]; auto using blames_nil;
      apply blames_one; apply Ha; reflexivity.
  - repeat apply blames_app.
    + apply IHe; intros X; [apply Hr|apply Ha|apply Hl|apply He]; rewrite X; reflexivity.
    + apply IHsp; intros X; [apply Hr|apply Ha|apply Hl|apply He];
        rewrite X, ?andb_false_r; reflexivity.
    + destruct (pterm_simple e); [destruct (pterm_simple sp)|]; simpl; auto using blames_nil;
        apply blames_one; apply Hl; rewrite ?andb_false_r; reflexivity.
Qed.

Lemma ck_decl_blame st err d k oi :
  (forall id n e, d = DMacro id n e -> lookup n (n_names st) = Some (EMacro id e)) ->
  In (k, oi) (ck_decl st err d) ->
  cycle_blame (n_names st) k oi \/ (oi = Some (decl_id d) /\ check_fault st k d).
Proof.
  intros Hm H.
  assert (A : forall id e acts, decl_id d = id -> decl_expr d = Some e ->
            (forallb (action_ref_ok st) acts = false -> decl_refs_ok st d = false) ->
            (forallb (action_mode_ok st) acts = false -> decl_modes_ok st d = false) ->
            blames id (fun k => check_fault st k d)
                   (ck_lexpr st id e ++ flat_map (ck_action st id) acts)).
  { intros id e acts <- E Hr Hmo. apply blames_app; [apply ck_lexpr_blame; exact E|].
    apply blames_flat_map. intros a Ha.
    apply ck_action_blame; intros X; [apply Hr|apply Hmo]; exact (forallb_false_in _ _ a Ha X). }
  destruct d as [id n e a|id e a|id n e|id ns|id n body|id b n pr]; simpl ck_decl in H;
    try contradiction.
  1-2: right; apply (A id e a eq_refl eq_refl); auto; simpl; intros ->; auto using andb_false_r.
  - apply in_app_or in H. destruct H as [H|H].
    + right. exact (ck_lexpr_blame st (DMacro id n e) e eq_refl k oi H).
    + left. destruct (err || nonempty (ck_lexpr st id e)); [contradiction|].
      apply macro_cycle_diag_In in H. exact (macro_walk_cycle _ n id e k oi (Hm id n e eq_refl) H).
  - right. revert k oi H. apply blames_flat_map. intros pd Hpd. apply blames_flat_map. intros t Ht.
    assert (L : forall p : pterm -> bool, p t = false -> forallb (forallb p) pr = false).
    { intros p X. exact (forallb_false_in _ _ pd Hpd (forallb_false_in _ _ t Ht X)). }
    apply ck_pterm_blame; simpl; intros X; auto.
    unfold decl_literals_ok. simpl. rewrite (L _ X). reflexivity.
Qed.

Lemma ck_decls_In st x : forall ds err,
  In x (ck_decls st err ds) -> exists d err', In d ds /\ In x (ck_decl st err' d).
Proof.
  induction ds as [|d r IH]; intros err; simpl; [contradiction|].
  intros H. apply in_app_or in H. destruct H as [H|H].
  - exists d, err. split; [left; reflexivity|exact H].
  - destruct (IH _ H) as [d' [err' [H1 H2]]]. exists d', err'. split; [right; exact H1|exact H2].
Qed.

Lemma lookup_nodup n e : forall t, NoDup (map fst t) -> In (n, e) t -> lookup n t = Some e.
Proof.
  induction t as [|[m e'] t IH]; simpl; [contradiction|].
  intros Hnd [X|X].
  - inversion X; subst. rewrite String.eqb_refl. reflexivity.
  - inversion Hnd; subst. destruct (String.eqb n m) eqn:E.
    + apply String.eqb_eq in E. subst m. exfalso. apply H1. apply (in_map fst) in X. exact X.
    + apply IH; assumption.
Qed.

Lemma lookup_decl_macro s id n e :
  wf_unique s = true -> In (DMacro id n e) (all_decls s) ->
  lookup n (n_names (canon s)) = Some (EMacro id e).
Proof.
  intros Hu Hin. apply lookup_nodup.
  - apply wf_unique_NoDup. exact Hu.
  - simpl. apply in_flat_map. exists (DMacro id n e). split; [exact Hin|left; reflexivity].
Qed.

Lemma token_actions_blame id (F : dkind -> Prop) acts :
  F KTokenDiscard -> F KTokenEmit -> blames id F (token_actions id acts).
Proof.
  intros Hd He. induction acts as [|a r IH]; simpl; auto using blames_nil.
  destruct a; auto; apply blames_one; assumption.
Qed.

Lemma frag_actions_blame id (F : dkind -> Prop) acts :
  F KFragTwoDiscard -> F KFragTwoEmit -> F KFragDiscardAndEmit ->
  forall hd he, blames id F (frag_actions id hd he acts).
Proof.
  intros H1 H2 H3. induction acts as [|a r IH]; intros hd he; simpl.
  - destruct (hd && he); auto using blames_nil. apply blames_one. exact H3.
  - destruct a; auto; [destruct hd|destruct he]; auto; apply blames_one; assumption.
Qed.

Definition gen_fault (k : dkind) (d : decl) : Prop :=
  match k with
  | KTokenDiscard | KTokenEmit => decl_token_actions_ok d = false
  | KFragTwoDiscard | KFragTwoEmit | KFragDiscardAndEmit => decl_frag_actions_ok d = false
  | _ => False
  end.

Lemma gen_decl_blame st d k oi :
  In (k, oi) (gen_decl st d) ->
  cycle_blame (n_names st) k oi \/ (oi = Some (decl_id d) /\ gen_fault k d).
Proof.
  destruct d as [id n e a|id e a|id n e|id ns|id n body|id b n pr]; simpl gen_decl;
    try contradiction; intros H; apply in_app_or in H; destruct H as [H|H];
    try (left; exact (expand_lexpr_cycle _ _ _ _ H)); right.
  - pose proof (In_not_ok _ _ _ H (token_actions_ok id a)) as F.
    exact (token_actions_blame id (fun k => gen_fault k (DToken id n e a)) a F F k oi H).
  - pose proof (In_not_ok _ _ _ H (frag_part_ok id e a)) as F.
    exact (frag_actions_blame id (fun k => gen_fault k (DFrag id e a)) a F F F false false k oi H).
Qed.

Lemma fault_in_intro s k d oi :
  In d (all_decls s) -> oi = Some (decl_id d) -> (forall pre, fault_of s k pre d) ->
  exists i, oi = Some i /\ fault_in s k i.
Proof.
  intros Hd E F. apply in_split in Hd. destruct Hd as [pre [post Hd]].
  exists (decl_id d). split; [exact E|]. exists pre, d, post. auto.
Qed.

Lemma faults_of s k d pre : check_fault (canon s) k d \/ gen_fault k d -> fault_of s k pre d.
Proof. destruct k; simpl; tauto. Qed.

Lemma cycle_blame_fault s k oi :
  cycle_blame (n_names (canon s)) k oi -> exists i, oi = Some i /\ fault_in s k i.
Proof.
  intros [-> [mid [n [body [X2 [X3 X4]]]]]]. apply In_macro_decl in X3.
  apply (fault_in_intro s _ (DMacro mid n body) oi X3 X2). intros pre. simpl. eauto.
Qed.

Theorem reject_points_into_fault : forall s k oi,
  In (k, oi) (analyze s) ->
  (k = KStartUndefined /\ oi = None) \/ (exists i, oi = Some i /\ fault_in s k i).
Proof.
  intros s k oi. unfold analyze. destruct (pass_names s) as [st d1] eqn:E.
  destruct d1 as [|x d1]; [|intros H; right; exact (pass_names_blame _ _ _ _ _ E H)].
  apply pass_names_char in E. destruct E as [_ [Eu [_ E]]]. subst st.
  destruct (pass_check (canon s) s) as [|y d2] eqn:E2.
  - unfold pass_gen. destruct (flat_map (gen_decl (canon s)) (all_decls s)) as [|z d3] eqn:E3.
    + destruct (n_rules (canon s) && negb (n_start (canon s))); [|contradiction].
      intros [X|[]]. inversion X; subst. left. auto.
    + rewrite <- E3. intros H. right. apply in_flat_map in H. destruct H as [d [Hd H]].
      destruct (gen_decl_blame _ _ _ _ H) as [X|[X1 X2]]; [exact (cycle_blame_fault _ _ _ X)|].
      apply (fault_in_intro s k d oi Hd X1). intros pre. apply faults_of. right. exact X2.
  - rewrite <- E2. intros H. right. unfold pass_check in H.
    apply ck_decls_In in H. destruct H as [d [err' [Hd H]]].
    assert (Hm : forall id n e, d = DMacro id n e ->
                 lookup n (n_names (canon s)) = Some (EMacro id e)).
    { intros id n e X. subst d. apply lookup_decl_macro; assumption. }
    destruct (ck_decl_blame _ _ _ _ _ Hm H) as [X|[X1 X2]]; [exact (cycle_blame_fault _ _ _ X)|].
    apply (fault_in_intro s k d oi Hd X1). intros pre. apply faults_of. left. exact X2.
Qed.

Corollary diag_ids_declared : forall s k i,
  In (k, Some i) (analyze s) -> In i (map decl_id (all_decls s)).
Proof.
  intros s k i H. destruct (reject_points_into_fault s k (Some i) H) as [[_ X]|[j [X1 X2]]];
    [discriminate|]. inversion X1; subst j.
  destruct X2 as [pre [d [post [E1 [E2 _]]]]]. rewrite E1, map_app. apply in_or_app. right.
  left. exact E2.
Qed.

Corollary single_fault_blamed : forall s i0,
  (forall k i, fault_in s k i -> i = i0) ->
  forall k i, In (k, Some i) (analyze s) -> i = i0.
Proof.
  intros s i0 Hone k i H.
  destruct (reject_points_into_fault s k (Some i) H) as [[_ X]|[j [X1 X2]]]; [discriminate|].
  inversion X1; subst j. exact (Hone k i X2).
Qed.

Print Assumptions reject_points_into_fault.
Print Assumptions diag_ids_declared.
Print Assumptions single_fault_blamed.
