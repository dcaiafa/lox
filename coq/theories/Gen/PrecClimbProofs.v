(* Theorems about the precedence-climbing reference (PrecClimb.v), property C05.
   Section Climb: [climb] never runs out of fuel and computes THE well-grouped
   tree of a token sequence ([climb_characterised]).  After it: the local rule
   of the LR conflict resolution (ResolveModel.resolve) against the documented
   one ([doc_choice]); that part uses nothing of [climb]. *)
From Coq Require Import List Arith Lia Bool.
From Lox Require Import Gen.PrecClimb Gen.ResolveModel Gen.ResolveProofs.
Import ListNotations.

Section Climb.
Variable tbl : list opinfo.

Lemma parse_expr_0 min toks : parse_expr tbl 0 min toks = PFuel.
Proof. reflexivity. Qed.

Lemma parse_loop_0 min l toks : parse_loop tbl 0 min l toks = PFuel.
Proof. reflexivity. Qed.

Lemma parse_expr_S f min toks :
  parse_expr tbl (S f) min toks =
  match toks with
  | EAtom a :: rest => parse_loop tbl f min (TAtom a) rest
  | ELParen :: rest =>
      match parse_expr tbl f 0 rest with
      | POk u rest1 =>
          match rest1 with
          | ERParen :: rest2 => parse_loop tbl f min (TParen u) rest2
          | _ => PErr
          end
      | PErr => PErr
      | PFuel => PFuel
      end
  | _ => PErr
  end.
Proof. reflexivity. Qed.

Lemma parse_loop_S f min l toks :
  parse_loop tbl (S f) min l toks =
  match toks with
  | EOp op :: rest =>
      match nth_error tbl op with
      | None => PErr
      | Some oi =>
          if min <=? o_level oi then
            match parse_expr tbl f (rmin oi) rest with
            | POk r rest1 => parse_loop tbl f min (TBin op l r) rest1
            | PErr => PErr
            | PFuel => PFuel
            end
          else POk l toks
      end
  | _ => POk l toks
  end.
Proof. reflexivity. Qed.

(* the operator loop stops in front of [toks] *)
Definition stop (min : nat) (toks : list etok) : Prop :=
  match toks with
  | EOp op :: _ => exists oi, nth_error tbl op = Some oi /\ o_level oi < min
  | _ => True
  end.

Inductive pexpr : nat -> list etok -> etree -> list etok -> Prop :=
| PE_atom min a rest t rest' :
    ploop min (TAtom a) rest t rest' ->
    pexpr min (EAtom a :: rest) t rest'
| PE_paren min rest u rest1 t rest' :
    pexpr 0 rest u (ERParen :: rest1) ->
    ploop min (TParen u) rest1 t rest' ->
    pexpr min (ELParen :: rest) t rest'
with ploop : nat -> etree -> list etok -> etree -> list etok -> Prop :=
| PL_stop min l toks :
    stop min toks ->
    ploop min l toks l toks
| PL_op min l op oi rest r rest1 t rest' :
    nth_error tbl op = Some oi ->
    min <= o_level oi ->
    pexpr (rmin oi) rest r rest1 ->
    ploop min (TBin op l r) rest1 t rest' ->
    ploop min l (EOp op :: rest) t rest'.

Scheme pexpr_mind := Minimality for pexpr Sort Prop
with ploop_mind := Minimality for ploop Sort Prop.
Combined Scheme pparse_mind from pexpr_mind, ploop_mind.

Lemma stop_mono m m' toks : stop m toks -> m <= m' -> stop m' toks.
Proof.
  intros Hs Hle. destruct toks as [|k toks]; [exact I|].
  destruct k as [a|op| |]; try exact I.
  destruct Hs as (oi & Hn & Hlt). exists oi. split; [exact Hn | lia].
Qed.

Lemma pparse_yield :
  (forall min toks t rest, pexpr min toks t rest -> toks = yield t ++ rest) /\
  (forall min l toks t rest, ploop min l toks t rest -> yield l ++ toks = yield t ++ rest).
Proof.
  apply pparse_mind.
  - intros min a rest t rest' _ IH. exact IH.
  - intros min rest u rest1 t rest' _ IH1 _ IH2.
    rewrite <- IH2. rewrite IH1. cbn [yield app]. rewrite <- app_assoc. reflexivity.
  - reflexivity.
  - intros min l op oi rest r rest1 t rest' _ _ _ IH1 _ IH2.
    rewrite <- IH2. rewrite IH1. cbn [yield]. rewrite <- app_assoc. reflexivity.
Qed.

Lemma yield_length t : 1 <= length (yield t).
Proof.
  destruct t; cbn [yield length]; try rewrite app_length; cbn [length]; lia.
Qed.

Lemma pexpr_length min toks t rest : pexpr min toks t rest -> length rest < length toks.
Proof.
  intros H. rewrite (proj1 pparse_yield _ _ _ _ H), app_length.
  pose proof (yield_length t). lia.
Qed.

Definition res_ok (f : nat) (toks : list etok) (P : etree -> list etok -> Prop) (r : pres) : Prop :=
  match r with
  | POk t rest => P t rest
  | PErr => True
  | PFuel => f <= length toks
  end.

Lemma res_ok_mono f f' toks toks' (P Q : etree -> list etok -> Prop) r :
  res_ok f toks P r ->
  (f <= length toks -> f' <= length toks') ->
  (forall t rest, P t rest -> Q t rest) ->
  res_ok f' toks' Q r.
Proof. destruct r; cbn [res_ok]; auto. Qed.

Lemma fun_spec f :
  (forall min toks, res_ok f toks (pexpr min toks) (parse_expr tbl f min toks)) /\
  (forall min l toks, res_ok f toks (ploop min l toks) (parse_loop tbl f min l toks)).
Proof.
  induction f as [|f [IHe IHl]]; [split; intros; cbn; lia|].
  split.
  - intros min toks. rewrite parse_expr_S.
    destruct toks as [|[a|op| |] toks]; try exact I.
    + apply (res_ok_mono _ _ _ _ _ _ _ (IHl min (TAtom a) toks)); [cbn [length]; lia|].
      intros t rest. apply PE_atom.
    + specialize (IHe 0 toks).
      destruct (parse_expr tbl f 0 toks) as [u rest1| |]; cbn [res_ok length] in *; [|exact I|lia].
      destruct rest1 as [|[a1|op1| |] rest2]; try exact I.
      pose proof (pexpr_length _ _ _ _ IHe) as Hlen. cbn [length] in Hlen.
      apply (res_ok_mono _ _ _ _ _ _ _ (IHl min (TParen u) rest2)); [cbn [length]; lia|].
      intros t rest. apply PE_paren, IHe.
  - intros min l toks. rewrite parse_loop_S.
    destruct toks as [|[a|op| |] toks]; try (apply PL_stop; exact I).
    destruct (nth_error tbl op) as [oi|] eqn:Hn; [|exact I].
    destruct (Nat.leb_spec min (o_level oi)) as [Hle|Hgt];
      [|apply PL_stop; exists oi; split; [exact Hn | exact Hgt]].
    specialize (IHe (rmin oi) toks).
    destruct (parse_expr tbl f (rmin oi) toks) as [r rest1| |]; cbn [res_ok length] in *; [|exact I|lia].
    pose proof (pexpr_length _ _ _ _ IHe) as Hlen.
    apply (res_ok_mono _ _ _ _ _ _ _ (IHl min (TBin op l r) rest1)); [cbn [length]; lia|].
    intros t rest. apply (PL_op _ _ _ _ _ _ _ _ _ Hn Hle IHe).
Qed.

Lemma fun_sound f min toks t rest :
  parse_expr tbl f min toks = POk t rest -> pexpr min toks t rest.
Proof. intros H. pose proof (proj1 (fun_spec f) min toks) as S. rewrite H in S. exact S. Qed.

(* on ANY input, well formed or not *)
Theorem fuel_adequate toks : climb_res tbl toks <> PFuel.
Proof.
  unfold climb_res. intros H.
  pose proof (proj1 (fun_spec (S (length toks))) 0 toks) as S. rewrite H in S.
  cbn [res_ok] in S. lia.
Qed.

Corollary climb_never_out_of_fuel toks : climb_out_of_fuel tbl toks = false.
Proof.
  unfold climb_out_of_fuel. pose proof (fuel_adequate toks) as H.
  destruct (climb_res tbl toks); [reflexivity | reflexivity | congruence].
Qed.

Lemma fun_complete :
  (forall min toks t rest, pexpr min toks t rest ->
     forall f, length toks < f -> parse_expr tbl f min toks = POk t rest) /\
  (forall min l toks t rest, ploop min l toks t rest ->
     forall f, length toks < f -> parse_loop tbl f min l toks = POk t rest).
Proof.
  apply pparse_mind.
  - intros min a rest t rest' _ IH f Hf.
    destruct f as [|f]; [lia|]. rewrite parse_expr_S. apply IH. cbn [length] in Hf. lia.
  - intros min rest u rest1 t rest' Hu IH1 _ IH2 f Hf.
    destruct f as [|f]; [lia|]. rewrite parse_expr_S. cbn [length] in Hf.
    rewrite (IH1 f) by lia.
    apply IH2. apply pexpr_length in Hu. cbn [length] in Hu. lia.
  - intros min l toks Hs f Hf.
    destruct f as [|f]; [lia|]. rewrite parse_loop_S.
    destruct toks as [|k toks]; [reflexivity|].
    destruct k as [a|op| |]; try reflexivity.
    destruct Hs as (oi & Hn & Hlt). rewrite Hn.
    destruct (min <=? o_level oi) eqn:Hle; [apply Nat.leb_le in Hle; lia | reflexivity].
  - intros min l op oi rest r rest1 t rest' Hn Hle Hr IH1 _ IH2 f Hf.
    destruct f as [|f]; [lia|]. rewrite parse_loop_S. cbn [length] in Hf. rewrite Hn.
    destruct (min <=? o_level oi) eqn:Hle'; [|apply Nat.leb_gt in Hle'; lia].
    rewrite (IH1 f) by lia.
    apply IH2. apply pexpr_length in Hr. lia.
Qed.

Lemma climb_pexpr toks t : climb tbl toks = Some t <-> pexpr 0 toks t [].
Proof.
  unfold climb, climb_res. split.
  - intros H. destruct (parse_expr tbl (S (length toks)) 0 toks) as [t' rest| |] eqn:Hp;
      try discriminate.
    destruct rest; [|discriminate]. inversion H; subst.
    now apply fun_sound in Hp.
  - intros H. rewrite (proj1 fun_complete _ _ _ _ H) by lia. reflexivity.
Qed.

Corollary climb_none_genuine toks :
  climb tbl toks = None -> forall f t, parse_expr tbl f 0 toks <> POk t [].
Proof.
  intros Hnone f t Hp. apply fun_sound in Hp.
  apply climb_pexpr in Hp. congruence.
Qed.

Theorem climb_yield toks t : climb tbl toks = Some t -> yield t = toks.
Proof.
  intros H. apply climb_pexpr in H. apply (proj1 pparse_yield) in H.
  rewrite app_nil_r in H. now symmetry.
Qed.

Lemma lev_some op oi : nth_error tbl op = Some oi -> lev tbl op = o_level oi.
Proof. unfold lev. now intros ->. Qed.

Lemma rgt_some op oi : nth_error tbl op = Some oi -> rgt tbl op = o_right oi.
Proof. unfold rgt. now intros ->. Qed.

Lemma rmin_ge oi : o_level oi <= rmin oi.
Proof. unfold rmin. destruct (o_right oi); lia. Qed.

Lemma uniformb_uniform : uniformb tbl = true -> uniform tbl.
Proof.
  unfold uniformb, uniform. intros H a b oa ob Ha Hb Hlev.
  rewrite forallb_forall in H. specialize (H oa (nth_error_In _ _ Ha)).
  rewrite forallb_forall in H. specialize (H ob (nth_error_In _ _ Hb)).
  apply orb_true_iff in H. destruct H as [H | H].
  - apply negb_true_iff in H. apply Nat.eqb_neq in H. contradiction.
  - now apply eqb_prop in H.
Qed.

Lemma known_op op : (op <? length tbl) = true <-> exists oi, nth_error tbl op = Some oi.
Proof.
  rewrite Nat.ltb_lt, <- nth_error_Some.
  destruct (nth_error tbl op) as [oi|]; split; try congruence; eauto. intros [oi H]. discriminate.
Qed.

Lemma ops_known_bin_eq op l r :
  ops_known tbl (TBin op l r) = ops_known tbl l && ((op <? length tbl) && ops_known tbl r).
Proof. unfold ops_known, toks_known. cbn [yield]. rewrite forallb_app. reflexivity. Qed.

Lemma ops_known_paren_eq u : ops_known tbl (TParen u) = ops_known tbl u.
Proof.
  unfold ops_known, toks_known. cbn [yield forallb]. rewrite forallb_app. cbn [forallb andb].
  apply andb_true_r.
Qed.

Lemma ops_known_bin op l r :
  ops_known tbl (TBin op l r) = true ->
  ops_known tbl l = true /\ (exists oi, nth_error tbl op = Some oi) /\ ops_known tbl r = true.
Proof. rewrite ops_known_bin_eq, !andb_true_iff, known_op. tauto. Qed.

Definition nonop (fin : list etok) : Prop :=
  match fin with EOp _ :: _ => False | _ => True end.

Lemma nonop_stop min fin : nonop fin -> stop min fin.
Proof. destruct fin as [|k fin]; [easy|]. destruct k; easy. Qed.

(* [root_ge] and [nofollow] are the two hypotheses under which the parser
   follows a well-grouped tree ([climb_follows_tree] below): what the minimal
   level of the call and the tokens after the tree must allow. *)
Definition root_ge (m : nat) (t : etree) : Prop :=
  match t with TBin op _ _ => m <= lev tbl op | _ => True end.

(* the tokens after t cannot be absorbed by the right operand of t's root *)
Definition nofollow (t : etree) (toks : list etok) : Prop :=
  match t with
  | TBin op _ _ => exists oi, nth_error tbl op = Some oi /\ stop (rmin oi) toks
  | _ => True
  end.

Lemma root_ge_0 t : root_ge 0 t.
Proof. destruct t; cbn [root_ge]; auto with arith. Qed.

Lemma lt_or_eq_cases x y b :
  (x <? y) || ((y =? x) && b) = true <-> x < y \/ (y = x /\ b = true).
Proof. rewrite orb_true_iff, andb_true_iff, Nat.ltb_lt, Nat.eqb_eq. tauto. Qed.

(* The two invariants are what ok_right and ok_left say of an operand.
   For the right operand r of op this is arithmetic: r was parsed with minimal
   level rmin op. *)
Lemma ok_right_iff op oi r : nth_error tbl op = Some oi ->
  ok_right tbl op r = true <-> root_ge (rmin oi) r.
Proof.
  intros Hn. destruct r as [a|op' r1 r2|u]; cbn [ok_right root_ge]; [tauto| |tauto].
  rewrite lt_or_eq_cases, (lev_some _ _ Hn), (rgt_some _ _ Hn). unfold rmin.
  destruct (o_right oi); split; intros; lia.
Qed.

(* For the left operand l = TBin op' _ _ of op: op follows l, so it was not
   absorbed by the right operand of op', i.e. level op < rmin op'.  With equal
   levels that says op' is @left, and ok_left asks it of op: this is where
   [uniform] is needed. *)
Lemma ok_left_bin op oi op' oi' l1 l2 :
  uniform tbl -> nth_error tbl op = Some oi -> nth_error tbl op' = Some oi' ->
  ok_left tbl op (TBin op' l1 l2) = true <-> o_level oi < rmin oi'.
Proof.
  intros Huni Hn Hn'. cbn [ok_left].
  rewrite lt_or_eq_cases, negb_true_iff, (lev_some _ _ Hn), (rgt_some _ _ Hn), (lev_some _ _ Hn').
  pose proof (Huni _ _ _ _ Hn' Hn) as Hu. unfold rmin.
  destruct (o_right oi') eqn:E; split; intros H; try lia.
  - destruct H as [H|[Heq Hl]]; [lia|]. specialize (Hu Heq). congruence.
  - destruct (Nat.eq_dec (o_level oi') (o_level oi)) as [Heq|]; [|lia].
    right. split; [exact Heq|]. symmetry. exact (Hu Heq).
Qed.

Lemma nofollow_ok_left op oi l rest : uniform tbl -> nth_error tbl op = Some oi ->
  nofollow l (EOp op :: rest) -> ok_left tbl op l = true.
Proof.
  intros Huni Hn H. destruct l as [a|op' l1 l2|u]; try reflexivity.
  destruct H as (oi' & Hn' & oi2 & Hn2 & Hlt). rewrite Hn in Hn2. injection Hn2 as <-.
  apply (ok_left_bin _ _ _ _ _ _ Huni Hn Hn'), Hlt.
Qed.

Lemma ok_left_inv op oi l rest : uniform tbl -> nth_error tbl op = Some oi ->
  ops_known tbl l = true -> ok_left tbl op l = true ->
  root_ge (o_level oi) l /\ nofollow l (EOp op :: rest).
Proof.
  intros Huni Hn Hk H. destruct l as [a|op' l1 l2|u]; try (split; exact I).
  destruct (ops_known_bin _ _ _ Hk) as (_ & (oi' & Hn') & _).
  apply (ok_left_bin _ _ _ _ l1 l2 Huni Hn Hn') in H. split.
  - cbn [root_ge]. rewrite (lev_some _ _ Hn'). unfold rmin in H. destruct (o_right oi'); lia.
  - exists oi'. split; [exact Hn'|]. exists oi. split; [exact Hn | exact H].
Qed.

Lemma root_ge_nofollow m r rest :
  ops_known tbl r = true -> root_ge m r -> stop m rest -> nofollow r rest.
Proof.
  intros Hk H Hs. destruct r as [a|op' r1 r2|u]; try exact I.
  destruct (ops_known_bin _ _ _ Hk) as (_ & (oi' & Hn') & _).
  exists oi'. split; [exact Hn'|]. apply (stop_mono m); [exact Hs|].
  cbn [root_ge] in H. rewrite (lev_some _ _ Hn') in H. pose proof (rmin_ge oi'). lia.
Qed.

Lemma nofollow_nonop t fin : ops_known tbl t = true -> nonop fin -> nofollow t fin.
Proof. intros Hk Hf. exact (root_ge_nofollow 0 _ _ Hk (root_ge_0 t) (nonop_stop 0 _ Hf)). Qed.

Lemma pparse_stop :
  (forall min toks t rest, pexpr min toks t rest -> stop min rest) /\
  (forall min l toks t rest, ploop min l toks t rest -> stop min rest).
Proof.
  apply pparse_mind.
  - intros min a rest t rest' _ IH. exact IH.
  - intros min rest u rest1 t rest' _ _ _ IH2. exact IH2.
  - intros min l toks Hs. exact Hs.
  - intros min l op oi rest r rest1 t rest' _ _ _ _ _ IH2. exact IH2.
Qed.

Lemma pparse_well_grouped :
  uniform tbl ->
  (forall min toks t rest, pexpr min toks t rest ->
     well_grouped tbl t = true /\ root_ge min t) /\
  (forall min l toks t rest, ploop min l toks t rest ->
     well_grouped tbl l = true -> root_ge min l -> nofollow l toks ->
     well_grouped tbl t = true /\ root_ge min t).
Proof.
  intros Huni. apply pparse_mind.
  - intros min a rest t rest' _ IH. apply IH; [reflexivity | exact I | exact I].
  - intros min rest u rest1 t rest' _ IH1 _ IH2. apply IH2; [apply IH1 | exact I | exact I].
  - auto.
  - intros min l op oi rest r rest1 t rest' Hn Hle Hr IH1 _ IH2 Hwl Hrl Hnf.
    destruct IH1 as (Hwr & Hrr). apply IH2.
    + cbn [well_grouped]. rewrite Hwl, Hwr, !andb_true_r. apply andb_true_iff. split.
      * exact (nofollow_ok_left _ _ _ _ Huni Hn Hnf).
      * apply (ok_right_iff _ _ _ Hn), Hrr.
    + cbn [root_ge]. rewrite (lev_some _ _ Hn). exact Hle.
    + exists oi. split; [exact Hn | exact (proj1 pparse_stop _ _ _ _ Hr)].
Qed.

(* The hypothesis "all operators of toks are in the table" is not needed:
   climb answers None when it meets an operator outside the table. *)
Theorem climb_well_grouped toks t :
  uniformb tbl = true -> climb tbl toks = Some t -> well_grouped tbl t = true.
Proof.
  intros Hu H. apply climb_pexpr in H.
  apply (proj1 (pparse_well_grouped (uniformb_uniform Hu))) in H. tauto.
Qed.

Lemma pparse_known :
  (forall min toks t rest, pexpr min toks t rest -> ops_known tbl t = true) /\
  (forall min l toks t rest, ploop min l toks t rest ->
     ops_known tbl l = true -> ops_known tbl t = true).
Proof.
  apply pparse_mind.
  - intros min a rest t rest' _ IH. apply IH. reflexivity.
  - intros min rest u rest1 t rest' _ IH1 _ IH2. apply IH2.
    rewrite ops_known_paren_eq. exact IH1.
  - intros. assumption.
  - intros min l op oi rest r rest1 t rest' Hn _ _ IH1 _ IH2 Hl. apply IH2.
    rewrite ops_known_bin_eq, Hl, IH1, (proj2 (known_op op)) by eauto. reflexivity.
Qed.

Theorem climb_ops_known toks t : climb tbl toks = Some t -> toks_known tbl toks = true.
Proof.
  intros H. rewrite <- (climb_yield _ _ H). apply climb_pexpr in H.
  now apply (proj1 pparse_known) in H.
Qed.

(* the parser, run on the yield of a well-grouped tree t followed by tokens
   that cannot extend t, arrives in its loop with t as the left operand *)
Lemma climb_follows_tree :
  uniform tbl ->
  forall t, well_grouped tbl t = true -> ops_known tbl t = true ->
  forall min rest t' rest',
    root_ge min t -> nofollow t rest ->
    ploop min t rest t' rest' ->
    pexpr min (yield t ++ rest) t' rest'.
Proof.
  intros Huni t. induction t as [a | op l IHl r IHr | u IHu];
    intros Hwg Hk min rest t' rest' Hrg Hnf Hloop.
  - now apply PE_atom.
  - cbn [well_grouped] in Hwg. rewrite !andb_true_iff in Hwg.
    destruct Hwg as [[[Hokl Hokr] Hwl] Hwr].
    apply ops_known_bin in Hk. destruct Hk as (Hkl & (oi & Hn) & Hkr).
    destruct Hnf as (oi0 & Hn0 & Hstop). rewrite Hn in Hn0. injection Hn0 as <-.
    cbn [root_ge] in Hrg. rewrite (lev_some _ _ Hn) in Hrg.
    cbn [yield]. rewrite <- app_assoc. cbn [app].
    (* l is parsed first, up to op; then the loop takes op and r *)
    destruct (ok_left_inv _ _ _ (yield r ++ rest) Huni Hn Hkl Hokl) as [Hrl Hnl].
    apply IHl; [exact Hwl | exact Hkl | | exact Hnl |].
    + destruct l; cbn [root_ge] in *; auto. lia.
    + eapply PL_op; [exact Hn | exact Hrg | | exact Hloop].
      apply (ok_right_iff _ _ _ Hn) in Hokr.
      apply IHr; [exact Hwr | exact Hkr | exact Hokr
                 | exact (root_ge_nofollow _ _ _ Hkr Hokr Hstop) |].
      apply PL_stop. exact Hstop.
  - cbn [well_grouped] in Hwg. rewrite ops_known_paren_eq in Hk.
    cbn [yield app]. rewrite <- app_assoc. cbn [app].
    eapply PE_paren; [|exact Hloop].
    apply IHu; [exact Hwg | exact Hk | apply root_ge_0 | apply nofollow_nonop; [exact Hk | exact I] |].
    apply PL_stop. exact I.
Qed.

(* no fuel side condition: [fuel_adequate] is inside *)
Theorem climb_complete t :
  uniform tbl -> well_grouped tbl t = true -> ops_known tbl t = true ->
  climb tbl (yield t) = Some t.
Proof.
  intros Huni Hwg Hk. apply climb_pexpr.
  rewrite <- (app_nil_r (yield t)).
  apply climb_follows_tree; try assumption.
  - apply root_ge_0.
  - apply nofollow_nonop; [exact Hk | exact I].
  - apply PL_stop. exact I.
Qed.

(* one well-grouped tree per token sequence.  [ops_known] is required of
   one tree only (the other has the same tokens); without it the default
   level 0 / left of an operator outside the table would have to be covered
   by [uniform]. *)
Theorem well_grouped_unique t1 t2 :
  uniform tbl -> ops_known tbl t1 = true ->
  well_grouped tbl t1 = true -> well_grouped tbl t2 = true ->
  yield t1 = yield t2 -> t1 = t2.
Proof.
  intros Huni Hk1 Hw1 Hw2 Hy.
  assert (Hk2 : ops_known tbl t2 = true) by (unfold ops_known in *; now rewrite <- Hy).
  pose proof (climb_complete t1 Huni Hw1 Hk1) as H1.
  pose proof (climb_complete t2 Huni Hw2 Hk2) as H2.
  rewrite Hy in H1. congruence.
Qed.

Theorem climb_characterised toks t :
  uniformb tbl = true ->
  (climb tbl toks = Some t <->
   yield t = toks /\ well_grouped tbl t = true /\ toks_known tbl toks = true).
Proof.
  intros Hu. split.
  - intros H. split; [now apply climb_yield|].
    split; [now apply (climb_well_grouped toks) | now apply (climb_ops_known toks t)].
  - intros (Hy & Hwg & Hk). subst toks.
    apply climb_complete; [now apply uniformb_uniform | exact Hwg | exact Hk].
Qed.

(* The token sequences of the grammar are the yields of ARBITRARY trees; climb
   accepts each of them, so a None of the reference is always a syntax error
   (or an operator outside the table), never a grouping it cannot express. *)

(* X = (op tree)* fin *)
Inductive tailp (fin : list etok) : list etok -> Prop :=
| T_fin : tailp fin fin
| T_op op oi q X :
    nth_error tbl op = Some oi -> ops_known tbl q = true -> tailp fin X ->
    tailp fin (EOp op :: yield q ++ X).

Lemma tailp_stop0 fin X : tailp fin X -> stop 0 X -> X = fin.
Proof.
  intros Ht Hs. destruct Ht as [|op oi q X Hn _ _]; [reflexivity|].
  cbn [stop] in Hs. destruct Hs as (oi' & _ & Hlt). lia.
Qed.

(* Both statements bound the input by n, so each holds of every smaller bound
   as well and a plain induction on n carries them. *)
Definition total_expr (n : nat) : Prop :=
  forall t fin X min, nonop fin -> length (yield t ++ X) <= n ->
    ops_known tbl t = true -> tailp fin X ->
    exists t' rest', pexpr min (yield t ++ X) t' rest' /\ tailp fin rest'.

Definition total_loop (n : nat) : Prop :=
  forall fin X min l, nonop fin -> length X <= n -> tailp fin X ->
    exists t' rest', ploop min l X t' rest' /\ tailp fin rest'.

Lemma total_loop_step n : total_expr n -> total_loop n -> total_loop (S n).
Proof.
  intros IHe IHl fin X min l Hfin Hlen Ht.
  destruct Ht as [|op oi q X Hn Hkq Ht].
  - exists l, fin. split; [apply PL_stop, nonop_stop, Hfin | apply T_fin].
  - cbn [length] in Hlen.
    destruct (le_lt_dec min (o_level oi)) as [Hle | Hgt].
    + destruct (IHe q fin X (rmin oi) Hfin ltac:(lia) Hkq Ht) as (r & rest1 & Hr & Ht1).
      pose proof (pexpr_length _ _ _ _ Hr) as Hlen1.
      destruct (IHl fin rest1 min (TBin op l r) Hfin ltac:(lia) Ht1) as (t' & rest' & Hl & Ht').
      exists t', rest'. split; [|exact Ht'].
      eapply PL_op; eassumption.
    + exists l, (EOp op :: yield q ++ X). split.
      * apply PL_stop. exists oi. split; [exact Hn | exact Hgt].
      * eapply T_op; eassumption.
Qed.

(* the right operand of a TBin is left to the loop: it becomes part of the tail *)
Lemma total_expr_step n : total_loop n -> total_expr (S n).
Proof.
  intros IHl t. induction t as [a | op l IHtl r IHtr | u IHu];
    intros fin X min Hfin Hlen Hk Ht.
  - cbn [yield app length] in *.
    destruct (IHl fin X min (TAtom a) Hfin ltac:(lia) Ht) as (t' & rest' & Hl & Ht').
    exists t', rest'. split; [now apply PE_atom | exact Ht'].
  - apply ops_known_bin in Hk. destruct Hk as (Hkl & (oi & Hn) & Hkr).
    cbn [yield] in *. rewrite <- app_assoc in *. cbn [app] in *.
    apply IHtl; [exact Hfin | exact Hlen | exact Hkl |].
    eapply T_op; eassumption.
  - rewrite ops_known_paren_eq in Hk.
    cbn [yield app] in *. rewrite <- app_assoc in *. cbn [app length] in *.
    destruct (IHu (ERParen :: X) (ERParen :: X) 0 I ltac:(lia) Hk (T_fin _))
      as (u' & rest1 & Hu & Ht1).
    pose proof (tailp_stop0 _ _ Ht1 (proj1 pparse_stop _ _ _ _ Hu)) as ->.
    rewrite app_length in Hlen. cbn [length] in Hlen.
    destruct (IHl fin X min (TParen u') Hfin ltac:(lia) Ht) as (t' & rest' & Hl & Ht').
    exists t', rest'. split; [|exact Ht'].
    eapply PE_paren; eassumption.
Qed.

Lemma total_all n : total_expr n /\ total_loop n.
Proof.
  induction n as [|n [IHe IHl]].
  - split.
    + intros t fin X min _ Hlen. rewrite app_length in Hlen.
      pose proof (yield_length t). lia.
    + intros fin X min l Hfin Hlen Ht. destruct Ht as [|op oi q X _ _ _]; [|cbn [length] in Hlen; lia].
      exists l, fin. split; [apply PL_stop, nonop_stop, Hfin | apply T_fin].
  - split; [apply total_expr_step, IHl | apply total_loop_step; assumption].
Qed.

Theorem climb_total t :
  ops_known tbl t = true -> exists t', climb tbl (yield t) = Some t'.
Proof.
  intros Hk.
  destruct (proj1 (total_all _) t [] [] 0 I (le_n _) Hk (T_fin _)) as (t' & rest' & Hp & Ht').
  pose proof (tailp_stop0 _ _ Ht' (proj1 pparse_stop _ _ _ _ Hp)) as ->.
  rewrite app_nil_r in Hp. exists t'. now apply climb_pexpr.
Qed.

(* with [well_grouped_unique]: exactly one *)
Corollary well_grouped_exists t :
  uniformb tbl = true -> ops_known tbl t = true ->
  exists t', yield t' = yield t /\ well_grouped tbl t' = true /\
             climb tbl (yield t) = Some t'.
Proof.
  intros Hu Hk. destruct (climb_total t Hk) as [t' Hc]. exists t'.
  split; [now apply climb_yield|]. split; [now apply (climb_well_grouped (yield t))|exact Hc].
Qed.

End Climb.

Print Assumptions fuel_adequate.
Print Assumptions climb_none_genuine.
Print Assumptions climb_yield.
Print Assumptions climb_well_grouped.
Print Assumptions climb_complete.
Print Assumptions well_grouped_unique.
Print Assumptions climb_characterised.
Print Assumptions climb_total.
Print Assumptions well_grouped_exists.

(* The documented choice in a shift/reduce cell: true = shift.  Shift when the
   production being shifted binds tighter than the one being reduced, or as
   tight and the reduced production is right-associative. *)
Definition doc_choice (prec : nat -> nat) (assoc_right : nat -> bool)
  (shift_prod reduce_prod : nat) : bool :=
  (prec reduce_prod <? prec shift_prod) ||
  ((prec shift_prod =? prec reduce_prod) && assoc_right reduce_prod).

Section Local.
Variable prec : nat -> nat.
Variable assoc_right : nat -> bool.
Variable rule_of : nat -> nat.

Notation resolve := (resolve prec assoc_right rule_of).
Notation doc_choice := (doc_choice prec assoc_right).

(* resolve_law and doc_choice differ in one place: at equal levels the
   document looks at the associativity of the reduced production, lox at
   whether the shift lists exactly that production, once, and it is @right *)
Lemma single_right_other sp p :
  sp <> [p] \/ assoc_right p = false -> single_right assoc_right sp p = false.
Proof.
  intros H. destruct sp as [|q0 [|]]; try reflexivity. cbn [single_right].
  destruct (Nat.eqb_spec q0 p) as [->|]; [|reflexivity].
  destruct H as [H|H]; [congruence | now rewrite H].
Qed.

Lemma resolve_defined cell tgt sp p :
  sr_cell cell tgt sp p -> sp <> [] ->
  (forall q, In q sp -> rule_of q = rule_of p) ->
  (forall q q', In q sp -> In q' sp -> prec q = prec q') ->
  (forall q, In q sp -> 0 < prec q) -> 0 < prec p ->
  exists r, resolve cell = Some r.
Proof.
  intros Hc Hne Hrule Hsame Hpos Hp. rewrite (resolve_sr_cell _ _ _ _ _ _ _ Hc).
  eexists. apply resolve_sr_iff. split; [|reflexivity].
  repeat split; assumption.
Qed.

(* Where resolve and the document agree.  q is any production listed by the
   shift action (they all have the same level when resolve succeeds). *)
Theorem resolve_agrees_with_doc_unless_right_duplicate cell tgt sp p r q :
  sr_cell cell tgt sp p -> resolve cell = Some r -> In q sp ->
  (~ (prec q = prec p /\ assoc_right p = true) \/ sp = [p]) ->
  r = if doc_choice q p then [CShift tgt sp] else [CReduce p].
Proof.
  intros Hc Hr Hq Hside. rewrite (resolve_law _ _ _ _ _ _ _ _ _ Hc Hr Hq).
  unfold PrecClimbProofs.doc_choice.
  destruct Hside as [Hno | ->]; [|cbn [single_right]; rewrite Nat.eqb_refl; reflexivity].
  destruct (Nat.eqb_spec (prec q) (prec p)) as [Heq|]; [|reflexivity].
  destruct (assoc_right p) eqn:Hright; [tauto|].
  rewrite single_right_other by (right; exact Hright). reflexivity.
Qed.

(* the same, from the structural hypotheses instead of "resolve cell = Some r" *)
Corollary resolve_agrees_with_doc_total cell tgt sp p q :
  sr_cell cell tgt sp p ->
  (forall q, In q sp -> rule_of q = rule_of p) ->
  (forall q q', In q sp -> In q' sp -> prec q = prec q') ->
  (forall q, In q sp -> 0 < prec q) -> 0 < prec p ->
  In q sp ->
  (~ (prec q = prec p /\ assoc_right p = true) \/ sp = [p]) ->
  resolve cell = Some (if doc_choice q p then [CShift tgt sp] else [CReduce p]).
Proof.
  intros Hc Hrule Hsame Hpos Hp Hq Hside.
  assert (Hne : sp <> []) by (intros ->; destruct Hq).
  destruct (resolve_defined _ _ _ _ Hc Hne Hrule Hsame Hpos Hp) as [r Hr].
  rewrite Hr. f_equal.
  exact (resolve_agrees_with_doc_unless_right_duplicate _ _ _ _ _ _ Hc Hr Hq Hside).
Qed.

(* Where they disagree (known finding D5): equal level, reduced production
   right-associative, and the shift action is not exactly [p]: the document
   says shift, resolve keeps the reduce. *)
Theorem resolve_disagrees_with_doc_right cell tgt sp p r q :
  sr_cell cell tgt sp p -> resolve cell = Some r -> In q sp ->
  prec q = prec p -> assoc_right p = true -> sp <> [p] ->
  doc_choice q p = true /\ r = [CReduce p].
Proof.
  intros Hc Hr Hq Heq Hright Hsp. rewrite (resolve_law _ _ _ _ _ _ _ _ _ Hc Hr Hq).
  unfold PrecClimbProofs.doc_choice.
  rewrite Heq, Nat.ltb_irrefl, Nat.eqb_refl, Hright, single_right_other by (left; exact Hsp).
  split; reflexivity.
Qed.

Corollary resolve_disagrees_with_doc_right_duplicate cell tgt sp p r q :
  sr_cell cell tgt sp p -> resolve cell = Some r -> In q sp ->
  prec q = prec p -> assoc_right p = true -> 1 < length sp ->
  doc_choice q p = true /\ r = [CReduce p].
Proof.
  intros Hc Hr Hq Heq Hright Hlen.
  apply (resolve_disagrees_with_doc_right _ _ _ _ _ _ Hc Hr Hq Heq Hright).
  intros ->. cbn [length] in Hlen. lia.
Qed.

End Local.

(* Refutation (ResolveModel's example table: production 4 = e '^' e, level 3,
   @right): the state after e '^' e holds the item e -> e . '^' e once per
   lookahead, AddShift listed production 4 twice; the document picks the shift,
   resolve keeps the reduce; with a single entry they agree. *)
Example resolve_doc_refuted :
  doc_choice ex_prec ex_right 4 4 = true /\
  resolve ex_prec ex_right ex_rule [CShift 9 [4; 4]; CReduce 4] = Some [CReduce 4] /\
  resolve ex_prec ex_right ex_rule [CShift 9 [4]; CReduce 4] = Some [CShift 9 [4]].
Proof. vm_compute. repeat split. Qed.

(* A second way to leave the side condition: two DIFFERENT @right operators
   sharing a level (4 = e '^' e, 5 = e '**' e, both level 3 @right).  After
   e '^' e with lookahead '**' the shift lists only production 5 <> 4: the
   reduce is kept even without duplicates, a ^ b ** c groups as (a ^ b) ** c. *)
Definition ex2_prec (p : nat) : nat := match p with 4 => 3 | 5 => 3 | _ => ex_prec p end.
Definition ex2_right (p : nat) : bool := match p with 4 => true | 5 => true | _ => false end.

Example resolve_doc_refuted_two_right_ops :
  doc_choice ex2_prec ex2_right 5 4 = true /\
  resolve ex2_prec ex2_right ex_rule [CShift 9 [5]; CReduce 4] = Some [CReduce 4].
Proof. vm_compute. repeat split. Qed.

Print Assumptions resolve_defined.
Print Assumptions resolve_agrees_with_doc_unless_right_duplicate.
Print Assumptions resolve_agrees_with_doc_total.
Print Assumptions resolve_disagrees_with_doc_right.
Print Assumptions resolve_disagrees_with_doc_right_duplicate.
Print Assumptions resolve_doc_refuted.
Print Assumptions resolve_doc_refuted_two_right_ops.
