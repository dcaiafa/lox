(* The converse of BindingVerdict.binding_sound: on grammars of the shape lox's
   desugaring produces, the sentence of the property implies that
   assign_actions succeeds; hence binding_verdict_exact. *)
From Coq Require Import List Arith Bool Lia.
From Lox Require Import Base.ListFacts Gen.Binding Gen.BindingLists Gen.BindingProofs Gen.BindingVerdict.
Import ListNotations.

Section Complete.
Variable o : oracle.
Variables tok err : ty.
Variable rules : list brule.
Variable prods : list bprod.
Variable ms : list meth.

Notation acts := (actions ms).
Notation has_type := (has_type o tok err rules prods ms).
Notation typing := (typing o tok err rules prods ms).
Notation accepts := (accepts o tok err).
Notation rt_final := (rt_final o tok err rules prods ms).
Notation reduce2 := (reduce_type o tok err rules prods reduce_fuel).
Notation pass' := (pass o tok err rules prods).
Notation derive' := (derive o tok err rules prods).
Notation rt0 := (phase1_types o rules acts).
Notation source_rel := (source_rel rules prods).
Notation source := (source rules prods).
Notation value := (value o).
Notation term_ity := (term_ity tok err).
Notation binding_ok_with := (binding_ok_with o tok err rules prods ms).
Notation user_production := (user_production rules prods).

Hypothesis Hwf : wf_input rules prods ms = true.
Hypothesis Hrefl : forall a, identical o a a = true.
Hypothesis Hsym : forall a b, identical o a b = true -> identical o b a = true.
Hypothesis Htrans : forall a b c,
  identical o a b = true -> identical o b c = true -> identical o a c = true.

(* The shape of a grammar after lox's desugaring (ast/parser_term.go):
   - an action method is never named after a generated rule (Go identifiers
     contain none of  ' * + ? ! @ );
   - every generated rule has its defining production: `c?` = c | e,
     `c+` = c+ c | c, `@list(c,s)` = @list s c | c, `c*` = c+ | e;
   - the element of a `+`/`@list` rule is a token or a user rule (the
     grammar of .lox files allows a cardinality only on a simple term). *)
Definition shape_ok : Prop :=
  (forall m rl, In m ms -> In rl rules -> rule_of m = Some (br_name rl) ->
                br_kind rl = NotGenerated) /\
  (forall k r, nth_error rules k = Some r ->
     br_kind r <> NotGenerated -> br_kind r <> SPrime ->
     exists pi x sl, source_rel k pi x sl /\
       (sl = true -> fst x = true \/ kind_of rules (snd x) = NotGenerated)).

Hypothesis Hshape : shape_ok.

Lemma shape_source : forall k r,
  nth_error rules k = Some r -> br_kind r <> NotGenerated -> br_kind r <> SPrime ->
  exists pi x sl, source k pi x sl /\
    (sl = true -> fst x = true \/ kind_of rules (snd x) = NotGenerated).
Proof.
  intros k r Hn K1 K2. destruct Hshape as [_ Hsh].
  destruct (Hsh k r Hn K1 K2) as [pi [x [sl [Hsrc Hel]]]].
  apply source_rel_iff in Hsrc. eauto.
Qed.

Lemma plus_not_opt : forall k, is_plus k -> k = ZeroOrOne -> False.
Proof. intros k [H|[H|H]]; rewrite H; discriminate. Qed.
Lemma star_not_opt : forall k, is_star k -> k = ZeroOrOne -> False.
Proof. intros k [H|H]; rewrite H; discriminate. Qed.
Lemma plus_not_star : forall k, is_plus k -> is_star k -> False.
Proof. intros k [H|[H|H]] [H'|H']; rewrite H in H'; discriminate. Qed.

Lemma source_functional : forall k pi x sl pi' x' sl',
  source k pi x sl -> source k pi' x' sl' -> pi = pi' /\ x = x' /\ sl = sl'.
Proof.
  intros k pi x sl pi' x' sl' H H'.
  (* the kind of the rule decides the constructor; with the same constructor
     the premises determine pi and x one after the other *)
  destruct H as [r ? ? ? ? ? Hn K Hp Hnp Hx|r ? ? ? ? ? ? Hn K Hp Hnp Hx
                |r ? ? ? ? ? ? ? ? ? ? ? ? Hn K Hp Hnp Hx Hnc Kc Hpc Hnpc Hxc];
  destruct H' as [r' ? ? ? ? ? Hn' K' Hp' Hnp' Hx'|r' ? ? ? ? ? ? Hn' K' Hp' Hnp' Hx'
                 |r' ? ? ? ? ? ? ? ? ? ? ? ? Hn' K' Hp' Hnp' Hx' Hnc' Kc' Hpc' Hnpc' Hxc'];
  rewrite Hn in Hn'; injection Hn' as <-.
  - rewrite Hp in Hp'. injection Hp' as <- _. rewrite Hnp in Hnp'. injection Hnp' as <-.
    rewrite Hx in Hx'. injection Hx' as <- _. auto.
  - destruct (plus_not_opt _ K' K).
  - destruct (star_not_opt _ K' K).
  - destruct (plus_not_opt _ K K').
  - rewrite Hp in Hp'. injection Hp' as _ <- _. rewrite Hnp in Hnp'. injection Hnp' as <-.
    rewrite Hx in Hx'. injection Hx' as <- _. auto.
  - destruct (plus_not_star _ K K').
  - destruct (star_not_opt _ K K').
  - destruct (plus_not_star _ K' K).
  - rewrite Hp in Hp'. injection Hp' as <- _. rewrite Hnp in Hnp'. injection Hnp' as <-.
    rewrite Hx in Hx'. injection Hx' as <- _. rewrite Hnc in Hnc'. injection Hnc' as <-.
    rewrite Hpc in Hpc'. injection Hpc' as _ <- _. rewrite Hnpc in Hnpc'. injection Hnpc' as <-.
    rewrite Hxc in Hxc'. injection Hxc' as <- _. auto.
Qed.

Lemma kind_user_dec : forall k,
  (k = NotGenerated \/ k = SPrime) \/ (k <> NotGenerated /\ k <> SPrime).
Proof. destruct k; auto; right; split; discriminate. Qed.

Lemma reduce_no_panic : forall rt k pi r,
  nth_error rules k = Some r -> exists t, reduce2 rt k pi = RT t.
Proof.
  intros rt k pi r Hn. destruct (kind_user_dec (br_kind r)) as [K|[K1 K2]].
  - exists INil. exact (red_user o tok err rules prods 1 rt k r pi Hn K).
  - destruct (shape_source k r Hn K1 K2) as [pi0 [x [sl [Hsrc _]]]].
    destruct (Nat.eq_dec pi pi0) as [->|Hne].
    + eexists. apply reduce_type_of_source; eauto.
    + exists INil. eapply reduce_type_other; eauto.
Qed.

Lemma ity_identical_refl : forall t, ity_identical o t t = true.
Proof. induction t; simpl; auto. Qed.

(* kept by every table on the way from rt0 to the fixed point *)
Definition inv (rt : rtypes) : Prop :=
  (forall k, kind_of rules k = NotGenerated -> rt_get rt k = rt_get rt0 k) /\
  (forall k, rt_get rt k <> INil -> kind_of rules k <> NotGenerated ->
     exists pi x sl, source k pi x sl /\ rt_get rt k = value sl (term_ity rt x)).

Lemma meth_rule_user : forall i r f others,
  nth_error rules i = Some r -> group acts (br_name r) = f :: others ->
  br_kind r = NotGenerated.
Proof.
  intros i r f others Hn Hg.
  destruct (group_cons ms _ f others f Hg (or_introl eq_refl)) as [Hfm Hfr].
  destruct Hshape as [Hs1 _]. apply (Hs1 f r); auto. eapply nth_error_In; eauto.
Qed.

Lemma rt0_user : forall k, rt_get rt0 k <> INil -> kind_of rules k = NotGenerated.
Proof.
  intros k H. destruct (rt0_get_inv o rules ms k) as [E|[r [f [others [Hg [Hf _]]]]]]; [contradiction|].
  apply find_rule_some in Hf. destruct Hf as [rl [Hn <-]].
  unfold kind_of. rewrite Hn. exact (meth_rule_user k rl f others Hn Hg).
Qed.

Lemma inv_rt0 : inv rt0.
Proof.
  split; auto. intros k Hk Hg. exfalso. apply Hg. apply rt0_user. exact Hk.
Qed.

Lemma source_elem_user : forall k pi x,
  source k pi x true -> fst x = true \/ kind_of rules (snd x) = NotGenerated.
Proof.
  intros k pi x Hsrc. destruct (source_kind _ _ _ _ _ _ Hsrc) as [r [Hn [K1 K2]]].
  destruct (shape_source k r Hn K1 K2) as [pi0 [x0 [sl0 [Hsrc0 Hel]]]].
  destruct (source_functional _ _ _ _ _ _ _ Hsrc Hsrc0) as [_ [-> <-]]. auto.
Qed.

(* a new entry for a generated rule k does not change the element type of any
   source whose value is already there: the element of a sliced source is a
   token or a user rule, and that of `c?` had a type before *)
Lemma term_ity_stable : forall rt k t k' pi' x' sl',
  source k' pi' x' sl' -> value sl' (term_ity rt x') <> INil ->
  rt_get rt k = INil -> kind_of rules k <> NotGenerated ->
  term_ity ((k, t) :: rt) x' = term_ity rt x'.
Proof.
  intros rt k t k' pi' [[|] c] sl' Hsrc Hv Hnil Hk; unfold Binding.term_ity; simpl; auto.
  destruct (k =? c) eqn:E; auto. apply Nat.eqb_eq in E. subst c. exfalso.
  destruct sl'.
  - destruct (source_elem_user _ _ _ Hsrc) as [H|H]; simpl in H; [discriminate|contradiction].
  - apply Hv. unfold BindingProofs.value, Binding.term_ity. simpl. exact Hnil.
Qed.

Lemma inv_step : forall rt k t pi,
  inv rt -> rt_get rt k = INil -> t <> INil -> reduce2 rt k pi = RT t ->
  inv ((k, t) :: rt).
Proof.
  intros rt k t pi [I1 I2] Hnil Ht Hr.
  destruct (reduce_type_source o tok err rules prods ms rt k pi t Hwf Hr Ht) as [x [sl [Hsrc Hval]]].
  destruct (source_facts rules prods ms Hwf _ _ _ _ Hsrc) as [_ [_ Hk]].
  split.
  - intros k' Hk'. simpl. destruct (k =? k') eqn:E; [|apply I1; auto].
    apply Nat.eqb_eq in E. subst. contradiction.
  - intros k' Hnn Hk'. simpl in Hnn. simpl rt_get at 1.
    destruct (k =? k') eqn:E.
    + apply Nat.eqb_eq in E. subst k'. exists pi, x, sl. split; auto.
      rewrite (term_ity_stable rt k t k pi x sl); auto. rewrite <- Hval. exact Ht.
    + destruct (I2 k' Hnn Hk') as [pi' [x' [sl' [Hsrc' Hv']]]].
      exists pi', x', sl'. split; auto.
      rewrite (term_ity_stable rt k t k' pi' x' sl'); auto. rewrite <- Hv'. exact Hnn.
Qed.

Lemma inv_same : forall rt k pi t,
  inv rt -> reduce2 rt k pi = RT t -> t <> INil -> rt_get rt k <> INil -> rt_get rt k = t.
Proof.
  intros rt k pi t [_ I2] Hr Ht Hnn.
  destruct (reduce_type_source o tok err rules prods ms rt k pi t Hwf Hr Ht) as [x [sl [Hsrc Hval]]].
  destruct (source_facts rules prods ms Hwf _ _ _ _ Hsrc) as [_ [_ Hk]].
  destruct (I2 _ Hnn Hk) as [pi' [x' [sl' [Hsrc' Hv']]]].
  destruct (source_functional _ _ _ _ _ _ _ Hsrc Hsrc') as [_ [<- <-]]. congruence.
Qed.

Definition untyped (rt : rtypes) : nat :=
  List.length (filter (fun j => ity_is_nil (rt_get rt j)) (seq 0 (List.length rules))).

Lemma untyped_add : forall rt k t,
  rt_get rt k = INil -> k < List.length rules -> t <> INil ->
  untyped ((k, t) :: rt) < untyped rt.
Proof.
  intros rt k t Hnil Hlt Ht. unfold untyped.
  apply (filter_length_lt _ _ _ k).
  - intros j. simpl. destruct (k =? j) eqn:E; auto.
    intros H. apply ity_is_nil_true in H. contradiction.
  - apply in_seq. lia.
  - rewrite Hnil. reflexivity.
  - simpl. rewrite Nat.eqb_refl. destruct t; auto. contradiction.
Qed.

Lemma pass_ok : forall ps rt ch,
  inv rt -> (forall ip, In ip ps -> In ip (indexed prods)) ->
  exists rt' ch', pass' ps rt ch = PDone rt' ch' /\ inv rt' /\
    untyped rt' <= untyped rt /\ (ch = false -> ch' = true -> untyped rt' < untyped rt).
Proof.
  induction ps as [|[pi p] rest IH]; intros rt ch Hinv Hps.
  - exists rt, ch. split; [reflexivity|]. split; [exact Hinv|]. split; [lia|].
    intros -> H. discriminate.
  - assert (Hrest : forall ip', In ip' rest -> In ip' (indexed prods))
      by (intros; apply Hps; simpl; auto).
    assert (Hip : nth_error prods pi = Some p) by (apply in_indexed, Hps; simpl; auto).
    destruct (wf_prod_in _ _ _ p Hwf (nth_error_In _ _ Hip)) as [Hlt _].
    destruct (nth_error rules (bp_rule p)) as [r|] eqn:Hn; [|apply nth_error_None in Hn; lia].
    destruct (reduce_no_panic rt (bp_rule p) pi r Hn) as [t Hr].
    rewrite pass_cons. cbn [fst snd]. rewrite Hr.
    destruct (ity_is_nil t) eqn:Et; [apply IH; auto|]. apply ity_is_nil_false in Et.
    destruct (ity_is_nil (rt_get rt (bp_rule p))) eqn:Eg.
    + apply ity_is_nil_true in Eg.
      destruct (IH ((bp_rule p, t) :: rt) true) as [rt' [ch' [Hpass [Hinv' [Hle _]]]]]; auto.
      { eapply inv_step; eauto. }
      exists rt', ch'. pose proof (untyped_add rt (bp_rule p) t Eg Hlt Et).
      split; [exact Hpass|]. split; [exact Hinv'|]. split; [lia|intros; lia].
    + apply ity_is_nil_false in Eg.
      rewrite (inv_same rt _ _ _ Hinv Hr Et Eg), ity_identical_refl. apply IH; auto.
Qed.

Lemma derive_ok : forall fuel rt,
  inv rt -> untyped rt < fuel -> exists rt', derive' fuel rt = DvOk rt' /\ inv rt'.
Proof.
  induction fuel as [|f IH]; intros rt Hinv Hlt; [lia|]. simpl.
  destruct (pass_ok (indexed prods) rt false Hinv (fun ip H => H))
    as [rt1 [ch1 [Hpass [Hinv1 [Hle Hdec]]]]].
  rewrite Hpass. destruct ch1.
  - apply IH; auto. specialize (Hdec eq_refl eq_refl). lia.
  - exists rt1. auto.
Qed.

Lemma untyped_le : forall rt, untyped rt <= List.length rules.
Proof.
  intros rt. unfold untyped.
  assert (H : forall A (f : A -> bool) l, List.length (filter f l) <= List.length l).
  { induction l as [|a l IH]; simpl; auto. destruct (f a); simpl; lia. }
  eapply Nat.le_trans; [apply H|]. rewrite seq_length. lia.
Qed.

Lemma derive_succeeds : exists rt,
  derive' (derive_fuel rules) rt0 = DvOk rt /\ inv rt.
Proof.
  (* untyped rt0 <= |rules| < |rules| + 2: derive_fuel has a round to spare *)
  apply derive_ok; [apply inv_rt0|]. unfold derive_fuel.
  pose proof (untyped_le rt0). lia.
Qed.

Lemma has_type_functional : forall i t, has_type i t -> forall t', has_type i t' -> t = t'.
Proof.
  apply (has_type_ind2 o tok err rules prods ms (fun i t => forall t', has_type i t' -> t = t')).
  - intros i r f others Hn Hg t' H'. pose proof (meth_rule_user _ _ _ _ Hn Hg) as K.
    destruct (has_type_inv _ _ _ _ _ _ i t' H')
      as [[r' [f' [o' [Hn' [Hg' ->]]]]]|[pi [x [sl [t0 [Hsrc _]]]]]].
    + congruence.
    + destruct (source_kind _ _ _ _ _ _ Hsrc) as [r' [Hn' [K' _]]]. congruence.
  - intros k pi x sl t Hsrc He t' H'.
    destruct (has_type_inv _ _ _ _ _ _ k t' H')
      as [[r' [f' [o' [Hn' [Hg' ->]]]]]|[pi' [x' [sl' [t0 [Hsrc' [He' ->]]]]]]].
    + pose proof (meth_rule_user _ _ _ _ Hn' Hg') as K.
      destruct (source_kind _ _ _ _ _ _ Hsrc) as [r [Hn [K' _]]]. congruence.
    + destruct (source_functional _ _ _ _ _ _ _ Hsrc Hsrc') as [_ [<- <-]]. f_equal.
      destruct He as [[E1 E2]|[E1 [_ E2]]], He' as [[E3 E4]|[E3 E4]]; try congruence. auto.
Qed.

Lemma derive_complete : forall fuel fin,
  derive' fuel rt0 = DvOk fin -> forall i t, has_type i t -> rt_get fin i <> INil.
Proof.
  intros fuel fin Hd.
  apply (has_type_ind2 o tok err rules prods ms (fun i t => rt_get fin i <> INil)).
  - intros i r f others Hn Hg.
    assert (Hnn : rt_get rt0 i <> INil)
      by (rewrite (rt0_value o rules ms i r f others (wf_names _ _ _ Hwf) Hn Hg); discriminate).
    rewrite (derive_mono o tok err rules prods _ _ _ _ Hd Hnn). exact Hnn.
  - (* the last round found the source production settled, and its value is not nil *)
    intros k pi x sl t Hsrc He.
    destruct (source_facts rules prods ms Hwf _ _ _ _ Hsrc) as [[p [Hnp Hrule]] _].
    assert (Hin : In (pi, p) (indexed prods)) by (apply in_indexed; auto).
    destruct (derive_fixed o tok err rules prods _ _ _ Hd _ Hin) as [t' [Hr' Hs]].
    cbn [fst snd] in Hr', Hs. rewrite Hrule in Hr', Hs.
    rewrite (reduce_type_of_source o tok err rules prods fin k pi x sl Hsrc) in Hr'.
    inversion Hr'; subst t'. destruct Hs as [Hs|[Hs _]]; [exfalso|exact Hs].
    destruct sl; [exact (islice_nonnil o _ Hs)|].
    unfold BindingProofs.value, Binding.term_ity in Hs.
    destruct He as [[Hf _]|[Hf [_ Hnn]]]; rewrite Hf in Hs; [discriminate|contradiction].
Qed.

(* assert.True(Identical(matches[0].Return, RuleGoTypes[prod.Rule])) holds: the
   type of a user rule is the result type of the first method of its group, and
   all methods of a group return that type *)
Lemma phase4_no_panic : forall rt,
  inv rt -> phase1_errs o rules acts = [] ->
  phase4_panics o tok err rules prods rt acts = false.
Proof.
  intros rt [I1 _] H1. unfold phase4_panics. apply existsb_false_intro. intros [pi p] Hin. simpl.
  destruct (matches o tok err rules rt acts p) as [|m [|m' l]] eqn:Em; auto.
  apply negb_false_iff. apply in_user_prods in Hin. destruct Hin as [Hnp Hk].
  assert (Hmm : In m (matches o tok err rules rt acts p)) by (rewrite Em; simpl; auto).
  apply in_matches in Hmm. destruct Hmm as [Hms [Hr _]].
  destruct (wf_prod_in _ _ _ p Hwf (nth_error_In _ _ Hnp)) as [Hlt _].
  unfold kind_of in Hk. unfold name_of in Hr.
  destruct (nth_error rules (bp_rule p)) as [rl|] eqn:Hn; [|apply nth_error_None in Hn; lia].
  assert (Hg : In m (group acts (br_name rl))) by (apply in_group_iff; auto).
  destruct (group acts (br_name rl)) as [|f others] eqn:Eg; [contradiction|].
  rewrite (I1 (bp_rule p)) by (unfold kind_of; rewrite Hn; exact Hk).
  rewrite (rt0_value o rules ms _ _ _ _ (wf_names _ _ _ Hwf) Hn Eg). simpl.
  destruct Hg as [<-|Hg]; [apply Hrefl|].
  exact (proj2 (proj1 (phase1_errs_nil_iff o rules ms) H1 _ _ _ Eg) m Hg).
Qed.

Lemma term_has_ty_transfer : forall rtl rtl' t s,
  typing rtl -> typing rtl' ->
  (forall c rc, nth_error rules c = Some rc -> br_kind rc <> SPrime -> exists s', In (c, s') rtl') ->
  wf_term rules t = true -> term_has_ty tok err rtl t s -> term_has_ty tok err rtl' t s.
Proof.
  intros rtl rtl' [[|] c] s Hty Hty' Htot Hw; unfold term_has_ty; simpl; [auto|]. intros Hin.
  destruct (wf_term_rule rules c Hw) as [rc [Hnc Hkc]].
  destruct (Htot c rc Hnc Hkc) as [s' Hs'].
  rewrite (has_type_functional c s (Hty c s Hin) s' (Hty' c s' Hs')). exact Hs'.
Qed.

Lemma accepts_transfer : forall rtl rtl' m p,
  typing rtl -> typing rtl' ->
  (forall c rc, nth_error rules c = Some rc -> br_kind rc <> SPrime -> exists s', In (c, s') rtl') ->
  In p prods -> accepts rtl m p -> accepts rtl' m p.
Proof.
  intros rtl rtl' m p Hty Hty' Htot Hp H.
  destruct (wf_prod_in _ _ _ p Hwf Hp) as [_ Hall]. rewrite forallb_forall in Hall.
  unfold BindingProofs.accepts in *. eapply Forall2_impl_in; [exact H|].
  intros q t Ht [s [Hs Ha]]. exists s. split; [|exact Ha].
  exact (term_has_ty_transfer rtl rtl' t s Hty Hty' Htot (Hall t Ht) Hs).
Qed.

Theorem binding_complete : forall rtl,
  binding_ok_with rtl -> exists b rtl', assign_actions o tok err rules prods ms = BOk b rtl'.
Proof.
  intros rtl [C1 [C2 [C3 [Cty [C4 [C5 C6]]]]]].
  assert (H0 : phase0_errs ms = []) by (apply phase0_errs_nil_iff; exact C1).
  assert (H1 : phase1_errs o rules acts = []).
  { apply phase1_errs_nil_iff. intros r f others Hg.
    destruct (group_cons ms r f others f Hg (or_introl eq_refl)) as [Hfm Hfr]. split.
    - destruct (C2 f r Hfm Hfr) as [i [rl [Hn <-]]]. exists i.
      apply find_rule_complete; auto. apply (wf_names _ _ _ Hwf).
    - intros m Hm. destruct (group_cons ms r f others m Hg (or_intror Hm)) as [Hms Hr]. eauto. }
  destruct derive_succeeds as [rt [Hd Hinv]].
  assert (Hmiss : missing_rules rules rt = []).
  { apply missing_rules_nil_iff. intros k r Hn Hk. destruct (C4 k r Hn Hk) as [t Ht].
    exact (derive_complete _ _ Hd k t (Cty k t Ht)). }
  assert (Hfin : rt_final rt) by (unfold BindingProofs.rt_final; auto).
  pose proof (rule_types_typing o tok err rules prods ms rt
                (rt_final_sound o tok err rules prods ms rt Hwf Hfin)) as Hty'.
  pose proof (fun c rc => final_typed o tok err rules prods ms Hwf rt c rc Hfin) as C4'.
  (* rtl and the computed types accept the same methods *)
  assert (Hsingle : forall pi p, user_production pi p ->
            exists m, matches o tok err rules rt acts p = [m]).
  { intros pi p [Hnp Hk]. pose proof (nth_error_In _ _ Hnp) as Hp.
    destruct (C5 pi p (conj Hnp Hk)) as [m [Hm [Ha Huniq]]].
    apply (list_one_iff m_id _ (matches_nodup_ids o tok err rules ms rt p (wf_ids _ _ _ Hwf))).
    exists m. split.
    - apply (in_matches_accepts o tok err rules prods ms rt p m Hwf Hp).
      split; [exact Hm|exact (accepts_transfer rtl _ m p Cty Hty' C4' Hp Ha)].
    - intros m' Hin.
      apply (in_matches_accepts o tok err rules prods ms rt p m' Hwf Hp) in Hin.
      destruct Hin as [Hm' Ha']. apply Huniq; auto.
      exact (accepts_transfer _ rtl m' p Hty' Cty C4 Hp Ha'). }
  assert (Herr : phase4_errs o tok err rules prods rt acts = []).
  { unfold phase4_errs. apply flat_map_nil_iff. intros [pi p] Hin. simpl.
    apply in_user_prods in Hin. destruct (Hsingle pi p Hin) as [m Hm]. rewrite Hm. auto. }
  assert (Hun : unassigned acts (phase4_binding o tok err rules prods rt acts) = []).
  { apply unassigned_nil_iff. intros m Hm. apply in_actions in Hm. destruct Hm as [Hms Hact].
    apply (bound_iff o tok err rules prods ms rt m (wf_ids _ _ _ Hwf) Hms).
    destruct (C6 m Hms Hact) as [pi [p [Hup [Hmo Ha]]]].
    destruct (Hsingle pi p Hup) as [m' Hm'].
    exists pi, p. split; [apply in_user_prods; exact Hup|].
    assert (Hin : In m (matches o tok err rules rt acts p)).
    { destruct Hup as [Hnp _]. pose proof (nth_error_In _ _ Hnp) as Hp.
      apply (in_matches_accepts o tok err rules prods ms rt p m Hwf Hp).
      split; [exact Hmo|exact (accepts_transfer rtl _ m p Cty Hty' C4' Hp Ha)]. }
    rewrite Hm' in Hin. destruct Hin as [->|[]]. exact Hm'. }
  eexists. eexists.
  exact (assign_ok_intro o tok err rules prods ms rt Hwf Hfin (phase4_no_panic rt Hinv H1) Herr Hun).
Qed.

Theorem binding_verdict_exact :
  (exists b rtl, assign_actions o tok err rules prods ms = BOk b rtl) <->
  binding_ok o tok err rules prods ms.
Proof.
  split.
  - intros [b [rtl H]]. exists rtl.
    eapply (binding_sound o tok err rules prods ms Hwf Hrefl Hsym Htrans); eauto.
  - intros [rtl H]. eapply binding_complete; eauto.
Qed.

(* and the verdict is never a panic or a fuel exhaustion *)
Theorem binding_no_panic :
  (exists b rtl, assign_actions o tok err rules prods ms = BOk b rtl) \/
  (exists ds, assign_actions o tok err rules prods ms = BErr ds).
Proof.
  change (settled_result (assign_actions o tok err rules prods ms)).
  unfold assign_actions. rewrite Hwf, assign_actions_wf_guard.
  apply guard_settled. intros E0. apply guard_settled. intros E1.
  destruct derive_succeeds as [rt [Hd Hinv]]. rewrite Hd, (phase4_no_panic rt Hinv E1).
  apply guard_settled. intros _. apply guard_settled. intros _. apply guard_settled. intros _.
  left. eauto.
Qed.

End Complete.

Print Assumptions binding_verdict_exact.
Print Assumptions binding_no_panic.

Lemma elem_okb_inv : forall rules prods pi,
  elem_okb rules prods pi = true ->
  exists p x xs, nth_error prods pi = Some p /\ bp_terms p = x :: xs /\
                 (fst x = true \/ kind_of rules (snd x) = NotGenerated).
Proof.
  intros rules prods pi H. unfold elem_okb in H.
  destruct (nth_error prods pi) as [p|]; [|discriminate].
  destruct (bp_terms p) as [|x xs] eqn:Ex; [discriminate|].
  exists p, x, xs. repeat split; auto. apply orb_prop in H. destruct H as [H|H]; auto.
  right. apply is_user_true. exact H.
Qed.

Lemma is_plusb_true : forall k, is_plusb k = true -> is_plus k.
Proof. unfold is_plus. destruct k; simpl; intros; try discriminate; auto. Qed.

Lemma gen_shape_okb_plus : forall rules prods r,
  is_plus (br_kind r) ->
  gen_shape_okb rules prods r =
  match br_prods r with _ :: p1 :: _ => elem_okb rules prods p1 | _ => false end.
Proof. intros rules prods r [K|[K|K]]; unfold gen_shape_okb; rewrite K; reflexivity. Qed.

Lemma gen_shape_okb_star : forall rules prods r,
  is_star (br_kind r) ->
  gen_shape_okb rules prods r =
  match br_prods r with
  | p0 :: _ =>
    match nth_error prods p0 with
    | Some p =>
      match bp_terms p with
      | (false, c) :: _ =>
        match nth_error rules c with
        | Some rc =>
          is_plusb (br_kind rc) &&
          match br_prods rc with
          | _ :: p1 :: _ => elem_okb rules prods p1
          | _ => false
          end
        | None => false
        end
      | _ => false
      end
    | None => false
    end
  | [] => false
  end.
Proof. intros rules prods r [K|K]; unfold gen_shape_okb; rewrite K; reflexivity. Qed.

Theorem shape_okb_sound : forall rules prods ms,
  shape_okb rules prods ms = true -> shape_ok rules prods ms.
Proof.
  intros rules prods ms H. unfold shape_okb in H. apply andb_prop in H.
  destruct H as [Hm Hg]. rewrite forallb_forall in Hm, Hg. split.
  - intros m rl Hms Hrl Hr. specialize (Hm m Hms). unfold meth_shape_okb in Hm.
    rewrite Hr in Hm. rewrite forallb_forall in Hm. specialize (Hm rl Hrl).
    rewrite String.eqb_refl in Hm. simpl in Hm. apply is_user_true. exact Hm.
  - intros k r Hn K1 K2. pose proof (Hg r (nth_error_In _ _ Hn)) as Hr.
    destruct (kind_cases (br_kind r)) as [[K|K]|[K|[K|K]]]; try contradiction.
    + unfold gen_shape_okb in Hr. rewrite K in Hr.
      destruct (br_prods r) as [|p0 rest] eqn:Hp; [discriminate|].
      destruct (nth_error prods p0) as [p|] eqn:Hnp; [|discriminate].
      destruct (bp_terms p) as [|x xs] eqn:Hx; [discriminate|].
      exists p0, x, false. split; [|discriminate].
      apply source_rel_iff. eapply src_opt; eauto.
    + rewrite (gen_shape_okb_plus _ _ _ K) in Hr.
      destruct (br_prods r) as [|q [|p1 rest]] eqn:Hp; try discriminate.
      apply elem_okb_inv in Hr. destruct Hr as [p [x [xs [Hnp [Hx Hel]]]]].
      exists p1, x, true. split; [|auto].
      apply source_rel_iff. eapply src_plus; eauto.
    + rewrite (gen_shape_okb_star _ _ _ K) in Hr.
      destruct (br_prods r) as [|p0 rest] eqn:Hp; [discriminate|].
      destruct (nth_error prods p0) as [p|] eqn:Hnp; [|discriminate].
      destruct (bp_terms p) as [|[[|] c] xs] eqn:Hx; try discriminate.
      destruct (nth_error rules c) as [rc|] eqn:Hnc; [|discriminate].
      apply andb_prop in Hr. destruct Hr as [Kc Hr]. apply is_plusb_true in Kc.
      destruct (br_prods rc) as [|q [|p1 rest']] eqn:Hpc; try discriminate.
      apply elem_okb_inv in Hr. destruct Hr as [pc [x [xs' [Hnpc [Hxc Hel]]]]].
      exists p0, x, true. split; [|auto].
      apply source_rel_iff. eapply src_star; eauto.
Qed.

Print Assumptions shape_okb_sound.

(* the hypotheses are satisfiable: by the grammar s = x+ ; x = A of
   BindingProofs.cast_zero_refuted *)
Example shape_ok_example : shape_ok ex_rules ex_prods [ex_on_s; ex_on_x].
Proof. apply shape_okb_sound. vm_compute. reflexivity. Qed.

Example binding_ok_example : binding_ok ex_o 10 11 ex_rules ex_prods [ex_on_s; ex_on_x].
Proof.
  apply binding_verdict_exact.
  - vm_compute. reflexivity.
  - intros a. apply Nat.eqb_refl.
  - intros a b H. simpl in *. rewrite Nat.eqb_sym. exact H.
  - intros a b c H1 H2. simpl in *. apply Nat.eqb_eq in H1. apply Nat.eqb_eq in H2.
    apply Nat.eqb_eq. congruence.
  - apply shape_ok_example.
  - eexists. eexists. exact (proj1 cast_zero_refuted).
Qed.
