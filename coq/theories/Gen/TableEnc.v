(* Executable model of internal/codegen/table.go: the row-compressed table
   encoder behind the emitted _actions / _goto arrays (emit_parser.go) and the
   _lexerModeN arrays (emit_lexer.go).  This file is extracted and run against
   the Go code (VerifTableArray / VerifTableArrayU in verif_export.go).

   Entries are Z (the Go element type E is int32 or uint32), row indices are
   nat, Go maps are association lists with "first match wins" (a Go map
   assignment m[k] = v is modelled by consing (k, v) in front). *)
From Coq Require Import List ZArith.
From Lox Require Import Parse.Tables.
Import ListNotations.
Local Open Scope Z_scope.

(* encoding/binary.AppendVarint *)

(* ux := uint64(x) << 1; if x < 0 { ux = ^ux }   -- i.e. (x << 1) xor (x >> 63).
   On Z without wrap-around: exact for -(2^63) <= x < 2^63, in particular for
   every int32 / uint32 entry (|x| < 2^32); TableEncProofs.zigzag_bits is the
   equality with the bit formula on that range. *)
Definition zigzag (x : Z) : Z := if x <? 0 then -2 * x - 1 else 2 * x.

(* AppendUvarint: for x >= 0x80 { append(byte(x)|0x80); x >>= 7 }; append(byte(x)).
   Fuel = number of continuation bytes still allowed; a uint64 needs at most 9
   continuation bytes (10 bytes), an entry with |x| < 2^32 at most 4 (5 bytes).
   The fuel-exhausted branch is unreachable for u < 2^63 (fuel 9). *)
Fixpoint uvarint (fuel : nat) (u : Z) : list Z :=
  match fuel with
  | O => [u]
  | S f => if u <? 128 then [u] else (u mod 128 + 128) :: uvarint f (u / 128)
  end.

Definition varint (x : Z) : list Z := uvarint 9 (zigzag x).

(* table.rowKey: the key string, as its list of bytes *)
Fixpoint row_key (row : list Z) : list Z :=
  match row with
  | [] => []
  | x :: rest => varint x ++ row_key rest
  end.

Record tstate := {
  t_max : Z;                        (* maxIndex, starts at -1 *)
  t_rowmap : list (list Z * Z);     (* rowKey bytes -> offset in t_arr *)
  t_index : list (nat * Z);         (* row index -> offset in t_arr *)
  t_arr : list Z;
}.

Definition empty_table : tstate :=
  {| t_max := -1; t_rowmap := []; t_index := []; t_arr := [] |}.

Fixpoint lz_eqb (a b : list Z) : bool :=
  match a, b with
  | [], [] => true
  | x :: a', y :: b' => (x =? y) && lz_eqb a' b'
  | _, _ => false
  end.

Fixpoint rowmap_get (m : list (list Z * Z)) (k : list Z) : option Z :=
  match m with
  | [] => None
  | (k', v) :: rest => if lz_eqb k' k then Some v else rowmap_get rest k
  end.

Fixpoint index_get (m : list (nat * Z)) (i : nat) : option Z :=
  match m with
  | [] => None
  | (j, v) :: rest => if Nat.eqb j i then Some v else index_get rest i
  end.

(* table.AddRow; None is the panic "index must be monotonically increasing".
   E(len(row)) is len(row) itself as long as the row has fewer than 2^31
   entries. *)
Definition add_row (t : tstate) (index : nat) (row : list Z) : option tstate :=
  if Z.of_nat index <=? t_max t then None
  else
    let key := row_key row in
    match rowmap_get (t_rowmap t) key with
    | Some existing =>
      Some {| t_max := Z.of_nat index;
              t_rowmap := t_rowmap t;
              t_index := (index, existing) :: t_index t;
              t_arr := t_arr t |}
    | None =>
      let off := Zlength (t_arr t) in
      Some {| t_max := Z.of_nat index;
              t_rowmap := (key, off) :: t_rowmap t;
              t_index := (index, off) :: t_index t;
              t_arr := t_arr t ++ Zlength row :: row |}
    end.

(* table.Array.  [miss] is E(-1): -1 for the int32 instantiation (parser
   tables), 4294967295 for the uint32 instantiation (lexer mode tables).
   Go converts x + maxIndex + 1 with E(x); the model keeps the integer, i.e.
   assumes that the offset fits E. *)
Definition table_array_with (miss : Z) (t : tstate) : list Z :=
  map (fun i => match index_get (t_index t) i with
                | Some x => x + (t_max t + 1)
                | None => miss
                end) (seq 0 (Z.to_nat (t_max t + 1)))
  ++ t_arr t.

Definition table_array (t : tstate) : list Z := table_array_with (-1) t.

Fixpoint add_rows (t : tstate) (rows : list (nat * list Z)) : option tstate :=
  match rows with
  | [] => Some t
  | (i, row) :: rest =>
    match add_row t i row with
    | Some t' => add_rows t' rest
    | None => None
    end
  end.

Definition build_with (miss : Z) (rows : list (nat * list Z)) : option (list Z) :=
  match add_rows empty_table rows with
  | Some t => Some (table_array_with miss t)
  | None => None
  end.

(* newTable[int32] ... AddRow ... Array *)
Definition build (rows : list (nat * list Z)) : option (list Z) := build_with (-1) rows.
(* newTable[uint32] ... AddRow ... Array *)
Definition build_u (rows : list (nat * list Z)) : option (list Z) := build_with 4294967295 rows.

(* the panic condition, as a check on the index sequence *)
Fixpoint increasing (prev : Z) (rows : list (nat * list Z)) : bool :=
  match rows with
  | [] => true
  | (i, _) :: rest => (prev <? Z.of_nat i) && increasing (Z.of_nat i) rest
  end.

(* rows as the emitters build them *)

Fixpoint flat_pairs (ps : list (Z * Z)) : list Z :=
  match ps with
  | [] => []
  | (a, b) :: rest => a :: b :: flat_pairs rest
  end.

Fixpoint flat_triples (ts : list (Z * Z * Z)) : list Z :=
  match ts with
  | [] => []
  | (a, b, c) :: rest => a :: b :: c :: flat_triples rest
  end.

(* what mode_table appends for one DFA state: flags, number of transitions,
   (lo, hi, target) triples, (type, parameter) action pairs *)
Definition encode_lex_row (flag : bool) (trans : list (Z * Z * Z)) (acts : list (Z * Z)) : list Z :=
  (if flag then 1 else 0) :: Zlength trans :: flat_triples trans ++ flat_pairs acts.

(* reading a row back, the way the generated code addresses it *)

Fixpoint take (n : nat) (a : list Z) (i : Z) : option (list Z) :=
  match n with
  | O => Some []
  | S n' =>
    match nthz a i, take n' a (i + 1) with
    | Some x, Some r => Some (x :: r)
    | _, _ => None
    end
  end.

(* off := arr[i]; n := arr[off]; arr[off+1 : off+1+n] *)
Definition read_row (arr : list Z) (i : Z) : option (list Z) :=
  match nthz arr i with
  | None => None
  | Some off =>
    match nthz arr off with
    | None => None
    | Some n => if n <? 0 then None else take (Z.to_nat n) arr (off + 1)
    end
  end.

(* test vectors (table_test.go and hand-derived) *)

Example varint_0 : varint 0 = [0]. Proof. vm_compute. reflexivity. Qed.
Example varint_1 : varint 1 = [2]. Proof. vm_compute. reflexivity. Qed.
Example varint_m1 : varint (-1) = [1]. Proof. vm_compute. reflexivity. Qed.
Example varint_64 : varint 64 = [128; 1]. Proof. vm_compute. reflexivity. Qed.
Example varint_300 : varint 300 = [216; 4]. Proof. vm_compute. reflexivity. Qed.
Example varint_min32 : varint (-2147483648) = [255; 255; 255; 255; 15].
Proof. vm_compute. reflexivity. Qed.
Example varint_max32 : varint 2147483647 = [254; 255; 255; 255; 15].
Proof. vm_compute. reflexivity. Qed.
Example varint_maxu32 : varint 4294967295 = [254; 255; 255; 255; 31].
Proof. vm_compute. reflexivity. Qed.

Example build_small :
  build [(0%nat, [1; 2]); (1%nat, [3]); (3%nat, [1; 2])]
  = Some [4; 7; -1; 4;  2; 1; 2;  1; 3].
Proof. vm_compute. reflexivity. Qed.

(* TestTable in table_test.go *)
Example build_table_test :
  build [(0%nat, [1; 2; 3]); (1%nat, [3; 4]); (2%nat, [1; 2; 3]); (4%nat, [3; 4]); (5%nat, [1; 2])]
  = Some [6; 10; 6; -1; 10; 13;  3; 1; 2; 3;  2; 3; 4;  2; 1; 2].
Proof. vm_compute. reflexivity. Qed.

Example build_u_gap :
  build_u [(1%nat, [7])] = Some [4294967295; 2; 1; 7].
Proof. vm_compute. reflexivity. Qed.

Example build_panic : build [(1%nat, [1]); (1%nat, [2])] = None.
Proof. vm_compute. reflexivity. Qed.

Example read_small :
  read_row [4; 7; -1; 4;  2; 1; 2;  1; 3] 3 = Some [1; 2].
Proof. vm_compute. reflexivity. Qed.
