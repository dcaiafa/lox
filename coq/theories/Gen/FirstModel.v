(* Executable models of FIRST for lox's LALR(1) generator
   (/repo/internal/parsergen/lr1/first.go).

   1. [first_go]   : mirror of lr1.First / lr1.first as they stood before
                     /repo commit 22ac39a ("fix: compute FIRST as a least
                     fixed point"), including the [visited] set shared by one
                     whole First call.  It is what FirstProofs.first_go_refuted
                     is about.  The function that replaced it, ruleFirstSets,
                     has no Gallina mirror: the harness compares its output
                     with [first_spec] on every run (c04.go, first-set-differs).
   2. [first_tab]  : the textbook least fixed point (nullable + FIRST in one
                     table) by Jacobi iteration to saturation, and the derived
                     [nullable_spec], [first_spec], [first_seq_spec].

   The definitions are extracted to OCaml. *)
From Coq Require Import List Arith.
From Lox Require Import Parse.Grammar.
Import ListNotations.

(* Small set utilities: sorted duplicate-free lists of nat / option nat *)

Fixpoint ins_nat (x : nat) (l : list nat) : list nat :=
  match l with
  | [] => [x]
  | y :: l' =>
      if x <? y then x :: l
      else if x =? y then l
      else y :: ins_nat x l'
  end.

Definition sort_nat (l : list nat) : list nat := fold_right ins_nat [] l.

Definition memb (x : nat) (l : list nat) : bool := existsb (Nat.eqb x) l.

Definition on_eqb (a b : option nat) : bool :=
  match a, b with
  | None, None => true
  | Some x, Some y => x =? y
  | _, _ => false
  end.

(* None (Epsilon) sorts first. *)
Definition on_ltb (a b : option nat) : bool :=
  match a, b with
  | None, None => false
  | None, Some _ => true
  | Some _, None => false
  | Some x, Some y => x <? y
  end.

Fixpoint ins_on (x : option nat) (l : list (option nat)) : list (option nat) :=
  match l with
  | [] => [x]
  | y :: l' =>
      if on_ltb x y then x :: l
      else if on_eqb x y then l
      else y :: ins_on x l'
  end.

Definition sort_on (l : list (option nat)) : list (option nat) := fold_right ins_on [] l.

Definition on_mem (x : option nat) (l : list (option nat)) : bool := existsb (on_eqb x) l.

Definition is_some (x : option nat) : bool :=
  match x with Some _ => true | None => false end.

(* 1. Mirror of the Go code before 22ac39a (the Go lines quoted below are
   those of `git -C /repo show 22ac39a^:internal/parsergen/lr1/first.go`).

   [go_first fuel g vis s] mirrors  first(g, visited, s) : the visited set is
   threaded through (Go mutates it through the pointer) and returned.
   The result set is a list of [option nat], None = Epsilon.  [None] as the
   whole result means the fuel ran out (never happens with [go_fuel]: each
   nested call on a rule adds a new rule to [visited]). *)

Fixpoint go_first (fuel : nat) (g : grammar) (vis : list nat) (s : sym)
  {struct fuel} : option (list nat * list (option nat)) :=
  match fuel with
  | 0 => None
  | S f =>
      match s with
      | T t => Some (vis, [Some t])
      | NT n =>
          if memb n vis then Some (vis, [])
          else
            (* for _, term := range prod.Terms *)
            let fix terms (vis : list nat) (ts : list sym) (acc : list (option nat))
              {struct ts} : option (list nat * list (option nat) * bool) :=
              match ts with
              | [] => Some (vis, acc, true)                (* addEpsilon stays true *)
              | t :: ts' =>
                  match go_first f g vis t with
                  | None => None
                  | Some (vis1, ft) =>
                      let acc1 := acc ++ filter is_some ft in
                      if on_mem None ft then terms vis1 ts' acc1
                      else Some (vis1, acc1, false)
                  end
              end in
            (* for _, prod := range rule.Prods  (the productions of rule n, in index order) *)
            let fix prods (vis : list nat) (ps : list prod) (acc : list (option nat))
              {struct ps} : option (list nat * list (option nat)) :=
              match ps with
              | [] => Some (vis, acc)
              | p :: ps' =>
                  if lhs p =? n then
                    match rhs p with
                    | [] => prods vis ps' (acc ++ [None])
                    | _ :: _ =>
                        match terms vis (rhs p) acc with
                        | None => None
                        | Some (vis1, acc1, eps) =>
                            prods vis1 ps' (if eps then acc1 ++ [None] else acc1)
                        end
                    end
                  else prods vis ps' acc
              end in
            prods (n :: vis) g []
      end
  end.

Definition go_fuel (g : grammar) : nat := length g + 2.

(* the loop of First over syms (len(syms) <> 1); this loop is the same after
   22ac39a, only the per-symbol set comes from ruleFirstSets there *)
Fixpoint go_first_seq (g : grammar) (vis : list nat) (syms : list sym)
  (acc : list (option nat)) : option (list (option nat)) :=
  match syms with
  | [] => Some acc
  | s :: rest =>
      match go_first (go_fuel g) g vis s with
      | None => None
      | Some (vis1, part) =>
          let acc1 := acc ++ part in
          if on_mem None part then go_first_seq g vis1 rest acc1
          else Some (filter is_some acc1)              (* firstSet.Remove(Epsilon); break *)
      end
  end.

(* lr1.First; result sorted, duplicate-free, None (= Epsilon) first.
   [first_go_opt] = None only on fuel exhaustion (impossible). *)
Definition first_go_opt (g : grammar) (syms : list sym) : option (list (option nat)) :=
  match syms with
  | [s] =>
      match go_first (go_fuel g) g [] s with
      | None => None
      | Some (_, r) => Some (sort_on r)
      end
  | _ =>
      match go_first_seq g [] syms [] with
      | None => None
      | Some r => Some (sort_on r)
      end
  end.

Definition first_go (g : grammar) (syms : list sym) : list (option nat) :=
  match first_go_opt g syms with Some r => r | None => [] end.

(* What Closure uses for an item [A -> alpha . B beta, a]:  First(beta a),
   as terminal numbers (Epsilon can never be in it: the sequence ends with a
   terminal). *)
Fixpoint somes (l : list (option nat)) : list nat :=
  match l with
  | [] => []
  | Some t :: l' => t :: somes l'
  | None :: l' => somes l'
  end.

Definition first_go_seq (g : grammar) (beta : list sym) (a : nat) : list nat :=
  somes (first_go g (beta ++ [T a])).

(* 2. Textbook FIRST / nullable as one least fixed point.

   An entry (n, None)   says: rule n is nullable.
   An entry (n, Some t) says: terminal t is in FIRST(n). *)

Definition entry := (nat * option nat)%type.

Definition entry_eqb (a b : entry) : bool :=
  (fst a =? fst b) && on_eqb (snd a) (snd b).

Definition tmem (e : entry) (tab : list entry) : bool := existsb (entry_eqb e) tab.

Definition tadd (e : entry) (tab : list entry) : list entry :=
  if tmem e tab then tab else e :: tab.

Definition tadd_all (l : list entry) (tab : list entry) : list entry :=
  fold_left (fun tb e => tadd e tb) l tab.

Fixpoint tfirst (n : nat) (tab : list entry) : list (option nat) :=
  match tab with
  | [] => []
  | (m, Some t) :: tab' => if m =? n then Some t :: tfirst n tab' else tfirst n tab'
  | (_, None) :: tab' => tfirst n tab'
  end.

(* FIRST of a sequence w.r.t. a table; None = the sequence is nullable *)
Fixpoint seq_first (tab : list entry) (beta : list sym) : list (option nat) :=
  match beta with
  | [] => [None]
  | T t :: _ => [Some t]
  | NT n :: rest =>
      tfirst n tab ++ (if tmem (n, None) tab then seq_first tab rest else [])
  end.

Definition new_entries (g : grammar) (tab : list entry) : list entry :=
  flat_map (fun pr => map (fun x => (lhs pr, x)) (seq_first tab (rhs pr))) g.

Definition step (g : grammar) (tab : list entry) : list entry :=
  tadd_all (new_entries g tab) tab.

Definition stable_b (g : grammar) (tab : list entry) : bool :=
  forallb (fun e => tmem e tab) (new_entries g tab).

Fixpoint saturate (fuel : nat) (g : grammar) (tab : list entry) : list entry :=
  match fuel with
  | 0 => tab
  | S f => if stable_b g tab then tab else saturate f g (step g tab)
  end.

(* number of rules * (number of terminals + 1) + 1, both over-approximated by
   counting occurrences: every unstable step adds a new entry (lhs, x) with
   lhs a left-hand side and x Epsilon or a terminal occurring in a right-hand
   side. *)
Definition first_fuel (g : grammar) : nat :=
  length g * S (length (flat_map rhs g)) + 1.

Definition first_tab (g : grammar) : list entry := saturate (first_fuel g) g [].

(* true iff the iteration reached saturation (always, see FirstProofs.first_tab_stable) *)
Definition first_tab_ok (g : grammar) : bool := stable_b g (first_tab g).

(* table-taking versions (compute [first_tab g] once) *)
Definition nullable_tab (tab : list entry) (n : nat) : bool := tmem (n, None) tab.
Definition first_of_tab (tab : list entry) (n : nat) : list nat := sort_nat (somes (tfirst n tab)).
Definition first_seq_tab (tab : list entry) (beta : list sym) (a : nat) : list nat :=
  sort_nat (somes (seq_first tab (beta ++ [T a]))).

Definition nullable_spec (g : grammar) (n : nat) : bool := nullable_tab (first_tab g) n.
Definition first_spec (g : grammar) (n : nat) : list nat := first_of_tab (first_tab g) n.
Definition first_seq_spec (g : grammar) (beta : list sym) (a : nat) : list nat :=
  first_seq_tab (first_tab g) beta a.

Definition mkp (l : nat) (r : list sym) : prod := {| lhs := l; rhs := r |}.

(* S' -> s;  s -> q xs E;  q -> Z;  xs -> xs x | (empty);  x -> A
   terminals EOF=0 ERROR=1 E=2 Z=3 A=4; rules S'=0 s=1 q=2 xs=3 x=4 *)
Definition g_d1 : grammar :=
  [ mkp 0 [NT 1];
    mkp 1 [NT 2; NT 3; T 2];
    mkp 2 [T 3];
    mkp 3 [NT 3; NT 4];
    mkp 3 [];
    mkp 4 [T 4] ].

Example first_go_xs : first_go g_d1 [NT 3] = [None].
Proof. vm_compute. reflexivity. Qed.
Example first_spec_xs : (nullable_spec g_d1 3, first_spec g_d1 3) = (true, [4]).
Proof. vm_compute. reflexivity. Qed.
Example first_go_closure_call : first_go g_d1 [NT 3; T 2; T 0] = [Some 2].
Proof. vm_compute. reflexivity. Qed.
Example first_spec_closure_call : first_seq_spec g_d1 [NT 3; T 2] 0 = [2; 4].
Proof. vm_compute. reflexivity. Qed.
Example first_tab_ok_d1 : first_tab_ok g_d1 = true.
Proof. vm_compute. reflexivity. Qed.

(* the example of the doc comment in first.go:
   A = B C '%' E | D | '+';  B = '-' | eps;  C = '/' | eps;  D = '*' | eps;  E = '$'
   terminals % = 2, + = 3, - = 4, / = 5, * = 6, $ = 7; rules A=1 B=2 C=3 D=4 E=5 *)
Definition g_doc : grammar :=
  [ mkp 0 [NT 1];
    mkp 1 [NT 2; NT 3; T 2; NT 5]; mkp 1 [NT 4]; mkp 1 [T 3];
    mkp 2 [T 4]; mkp 2 [];
    mkp 3 [T 5]; mkp 3 [];
    mkp 4 [T 6]; mkp 4 [];
    mkp 5 [T 7] ].

Example first_go_doc_A : first_go g_doc [NT 1] = [None; Some 2; Some 3; Some 4; Some 5; Some 6].
Proof. vm_compute. reflexivity. Qed.
Example first_go_doc_B_star : first_go g_doc [NT 2; T 6] = [Some 4; Some 6].
Proof. vm_compute. reflexivity. Qed.
Example first_spec_doc_A : (nullable_spec g_doc 1, first_spec g_doc 1) = (true, [2; 3; 4; 5; 6]).
Proof. vm_compute. reflexivity. Qed.
