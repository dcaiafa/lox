(* The verdict of assign_actions against the sentence of property C06
   (binding_ok): success implies the sentence. *)
From Coq Require Import List Arith Lia.
From Lox Require Import Gen.Binding Gen.BindingLists Gen.BindingProofs.
Import ListNotations.

Section Verdict.
Variable o : oracle.
Variables tok err : ty.
Variable rules : list brule.
Variable prods : list bprod.
Variable ms : list meth.

Notation acts := (actions ms).
Notation typing := (typing o tok err rules prods ms).
Notation accepts := (accepts o tok err).
Notation rt_final := (rt_final o tok err rules prods ms).
Notation reduce2 := (reduce_type o tok err rules prods reduce_fuel).
Notation pass' := (pass o tok err rules prods).
Notation derive' := (derive o tok err rules prods).
Notation rt0 := (phase1_types o rules acts).
Notation source := (source rules prods).

Hypothesis Hwf : wf_input rules prods ms = true.

Definition source_rel (k pi : nat) (x : bool * nat) (sl : bool) : Prop :=
  exists r, nth_error rules k = Some r /\
  ((br_kind r = ZeroOrOne /\ sl = false /\
    exists rest p xs, br_prods r = pi :: rest /\ nth_error prods pi = Some p /\
                      bp_terms p = x :: xs) \/
   (is_plus (br_kind r) /\ sl = true /\
    exists q rest p xs, br_prods r = q :: pi :: rest /\ nth_error prods pi = Some p /\
                        bp_terms p = x :: xs) \/
   (is_star (br_kind r) /\ sl = true /\
    exists rest p c xs rc q p1 rest' pc xs',
      br_prods r = pi :: rest /\ nth_error prods pi = Some p /\
      bp_terms p = (false, c) :: xs /\ nth_error rules c = Some rc /\
      is_plus (br_kind rc) /\ br_prods rc = q :: p1 :: rest' /\
      nth_error prods p1 = Some pc /\ bp_terms pc = x :: xs')).

Lemma source_rel_iff : forall k pi x sl, source_rel k pi x sl <-> source k pi x sl.
Proof.
  intros k pi x sl. split.
  - intros [r [Hn [H|[H|H]]]].
    + destruct H as [K [-> [rest [p [xs [Hp [Hnp Hx]]]]]]]. eapply src_opt; eauto.
    + destruct H as [K [-> [q [rest [p [xs [Hp [Hnp Hx]]]]]]]]. eapply src_plus; eauto.
    + destruct H as [K [-> [rest [p [c [xs [rc [q [p1 [rest' [pc [xs' H]]]]]]]]]]]].
      destruct H as [Hp [Hnp [Hx [Hnc [Kc [Hpc [Hnpc Hxc]]]]]]]. eapply src_star; eauto.
  - intros H. destruct H; exists r; (split; [assumption|]).
    + left. eauto 10.
    + right; left. eauto 10.
    + right; right. split; [assumption|]. split; [reflexivity|].
      exists rest, p, c, xs, rc, q, p1, rest', pc, xs'. auto 10.
Qed.

Lemma islice_not_nil_match : forall e,
  match islice o e with INil => RP PAssertNil | t => RT t end = RT (islice o e).
Proof. intros [|t|e]; reflexivity. Qed.

Lemma wf_term_of_prod : forall pi p x xs,
  nth_error prods pi = Some p -> bp_terms p = x :: xs -> wf_term rules x = true.
Proof.
  intros pi p x xs Hn Hx. apply nth_error_In in Hn.
  destruct (wf_prod_in _ _ _ p Hwf Hn) as [_ Hall].
  rewrite forallb_forall in Hall. apply Hall. rewrite Hx. simpl. auto.
Qed.

Lemma prod_of_rule : forall k r pi,
  nth_error rules k = Some r -> In pi (br_prods r) ->
  exists p, nth_error prods pi = Some p /\ bp_rule p = k.
Proof.
  intros k r pi Hn Hin. rewrite (wf_rule_in _ _ _ k r Hwf Hn) in Hin.
  apply in_prods_of in Hin. exact Hin.
Qed.

Lemma source_kind : forall k pi x sl,
  source k pi x sl ->
  exists r, nth_error rules k = Some r /\ br_kind r <> NotGenerated /\ br_kind r <> SPrime.
Proof.
  intros k pi x sl H.
  destruct H as [r ? ? ? ? ? Hn K|r ? ? ? ? ? ? Hn K|r ? ? ? ? ? ? ? ? ? ? ? ? Hn K];
    exists r; (split; [exact Hn|]).
  - rewrite K. split; discriminate.
  - destruct K as [K|[K|K]]; rewrite K; split; discriminate.
  - destruct K as [K|K]; rewrite K; split; discriminate.
Qed.

Lemma source_facts : forall k pi x sl,
  source k pi x sl ->
  (exists p, nth_error prods pi = Some p /\ bp_rule p = k) /\ wf_term rules x = true /\
  kind_of rules k <> NotGenerated.
Proof.
  intros k pi x sl H. split; [|split].
  - destruct H; eapply prod_of_rule; eauto;
      match goal with E : br_prods _ = _ |- _ => rewrite E end; simpl; auto.
  - destruct H; eapply wf_term_of_prod; eauto.
  - destruct (source_kind _ _ _ _ H) as [r [Hn [K _]]]. unfold kind_of. rewrite Hn. exact K.
Qed.

Definition settled (rt : rtypes) (ip : nat * bprod) : Prop :=
  exists t, reduce2 rt (bp_rule (snd ip)) (fst ip) = RT t /\
    (t = INil \/ (rt_get rt (bp_rule (snd ip)) <> INil /\
                  ity_identical o (rt_get rt (bp_rule (snd ip))) t = true)).

(* adding an entry sets the flag for good *)
Lemma pass_false_inv : forall ps rt ch rt',
  pass' ps rt ch = PDone rt' false ->
  ch = false /\ rt' = rt /\ forall ip, In ip ps -> settled rt ip.
Proof.
  induction ps as [|ip rest IH]; intros rt ch rt' H.
  - inversion H. split; auto. split; auto. intros ? [].
  - apply pass_cons_inv in H.
    destruct H as [t [Hr [[Ht H]|[[Ht [Hn H]]|[Hn [Hi H]]]]]].
    + apply IH in H. destruct H as [Hch [-> Hall]]. split; auto. split; auto.
      intros ip' [<-|Hin]; auto. exists t. auto.
    + apply IH in H. destruct H as [Hch _]. discriminate.
    + apply IH in H. destruct H as [Hch [-> Hall]]. split; auto. split; auto.
      intros ip' [<-|Hin]; auto. exists t. auto.
Qed.

Lemma derive_fixed : forall fuel rt rt',
  derive' fuel rt = DvOk rt' -> forall ip, In ip (indexed prods) -> settled rt' ip.
Proof.
  induction fuel as [|f IH]; intros rt rt' H; simpl in H; [discriminate|].
  destruct (pass' (indexed prods) rt false) as [s|rt1 ch] eqn:Ep; [discriminate|].
  destruct ch.
  - eapply IH; eauto.
  - inversion H; subst. apply pass_false_inv in Ep. destruct Ep as [_ [-> Hall]]. exact Hall.
Qed.

Inductive hist (base : rtypes) : rtypes -> Prop :=
| hist_base : hist base base
| hist_step : forall rt k t pi,
    hist base rt -> rt_get rt k = INil -> t <> INil -> reduce2 rt k pi = RT t ->
    hist base ((k, t) :: rt).

Lemma derive_hist : forall fuel rt rt',
  derive' fuel rt = DvOk rt' -> hist rt rt'.
Proof.
  intros fuel rt rt' H.
  eapply (derive_invariant o tok err rules prods (hist rt)); [| |exact H].
  - intros rt1 k t pi Hh Hnil Ht Hr. eapply hist_step; eauto.
  - constructor.
Qed.

Definition ext (sub rt : rtypes) : Prop :=
  forall k, rt_get sub k <> INil -> rt_get rt k = rt_get sub k.

Lemma ext_cons : forall rt k t fin,
  rt_get rt k = INil -> ext ((k, t) :: rt) fin -> ext rt fin.
Proof.
  intros rt k t fin Hnil Hext j Hj.
  assert (E : (k =? j) = false) by (apply Nat.eqb_neq; intros ->; contradiction).
  rewrite Hext; simpl; rewrite E; auto.
Qed.

(* not a slice whose element type is still unknown (ISl INil) *)
Definition is_pure (t : ity) : Prop := t = INil \/ exists x, t = IT x.

Lemma rt0_pure : forall k, is_pure (rt_get rt0 k).
Proof.
  intros k. destruct (rt0_get_inv o rules ms k) as [E|[r [f [others [_ [_ E]]]]]];
    rewrite E; [left|right]; eauto.
Qed.

Lemma ity_identical_slnil : forall e, ity_identical o (ISl INil) (islice o e) = true -> e = INil.
Proof. intros [|t|e]; simpl; intros H; auto; try discriminate. Qed.

Lemma wf_term_rule : forall c,
  wf_term rules (false, c) = true ->
  exists rc, nth_error rules c = Some rc /\ br_kind rc <> SPrime.
Proof.
  intros c H. unfold wf_term in H. simpl in H. apply andb_prop in H. destruct H as [H1 H2].
  apply Nat.ltb_lt in H1. destruct (nth_error rules c) as [rc|] eqn:E.
  - exists rc. split; auto. unfold kind_of in H2. rewrite E in H2.
    intros K. rewrite K in H2. discriminate.
  - apply nth_error_None in E. lia.
Qed.

(* Induction over the insertion history.  The final table extends every
   intermediate one, so an entry ISl INil made on the way (a slice of a rule
   that had no type yet) is still there at the end; the last round found its
   production settled, which forces the element rule to be untyped in fin as
   well, against missing_rules = []. *)
Lemma final_pure_aux : forall fin,
  rt_final fin ->
  forall sub, hist rt0 sub -> ext sub fin -> forall k, is_pure (rt_get sub k).
Proof.
  intros fin Hfin sub Hh. induction Hh as [|rt k t pi Hh IH Hnil Ht Hr]; intros Hext k'.
  - apply rt0_pure.
  - specialize (IH (ext_cons _ _ _ _ Hnil Hext)). simpl. destruct (k =? k') eqn:E; [|apply IH].
    destruct (reduce_type_source o tok err rules prods ms rt k pi t Hwf Hr Ht)
      as [x [sl [Hsrc Hval]]].
    assert (Hfx : is_pure (term_ity tok err rt x)).
    { unfold term_ity. destruct (fst x); [right; eauto|apply IH]. }
    destruct Hfx as [Hfx|[y Hfx]].
    2:{ rewrite Hfx in Hval. subst t. destruct sl; simpl; right; eauto. }
    rewrite Hfx in Hval. destruct sl; simpl in Hval; [|congruence].
    (* t = ISl INil: the element rule has no type, now or ever *)
    exfalso. subst t.
    destruct (source_facts _ _ _ _ Hsrc) as [[p [Hnp Hrule]] [Hwt _]].
    assert (Hfink : rt_get fin k = ISl INil).
    { rewrite Hext; simpl; rewrite Nat.eqb_refl; auto; discriminate. }
    destruct Hfin as [_ [_ [Hd Hmiss]]].
    assert (Hin : In (pi, p) (indexed prods)) by (apply in_indexed; auto).
    pose proof (derive_fixed _ _ _ Hd _ Hin) as [t' [Hr' Hset]]. cbn [fst snd] in Hr', Hset.
    rewrite Hrule in Hr', Hset.
    rewrite (reduce_type_of_source o tok err rules prods fin k pi x true Hsrc) in Hr'.
    inversion Hr'; subst t'.
    simpl in Hset. destruct Hset as [Hset|[_ Hset]].
    + eapply islice_nonnil; eauto.
    + rewrite Hfink in Hset. apply ity_identical_slnil in Hset.
      unfold term_ity in Hset, Hfx. destruct x as [[|] c]; simpl in *; [discriminate|].
      destruct (wf_term_rule c Hwt) as [rc [Hnc Hkc]].
      exact (proj1 (missing_rules_nil_iff rules fin) Hmiss c rc Hnc Hkc Hset).
Qed.

Lemma final_typed : forall fin k r,
  rt_final fin -> nth_error rules k = Some r -> br_kind r <> SPrime ->
  exists t, In (k, t) (rule_types_of rules fin).
Proof.
  intros fin k r Hfin Hn Hk.
  pose proof Hfin as [_ [_ [Hd Hmiss]]].
  destruct (final_pure_aux fin Hfin fin (derive_hist _ _ _ Hd) (fun j _ => eq_refl) k) as [Hp|[t Hp]].
  - exfalso. exact (proj1 (missing_rules_nil_iff rules fin) Hmiss k r Hn Hk Hp).
  - exists t. apply rule_types_in. split; auto. apply nth_error_Some. congruence.
Qed.

Definition user_production (pi : nat) (p : bprod) : Prop :=
  nth_error prods pi = Some p /\ kind_of rules (bp_rule p) = NotGenerated.

Definition method_of (p : bprod) (m : meth) : Prop :=
  In m ms /\ rule_of m = Some (name_of rules (bp_rule p)).

(* the sentence of property C06, for an assignment rtl of types to rules *)
Definition binding_ok_with (rtl : list (nat * ty)) : Prop :=
  (* every on_ method returns exactly one value *)
  (forall m, In m ms -> is_action m = true -> List.length (m_results m) = 1) /\
  (* every on_ method is named after a rule of the grammar *)
  (forall m r, In m ms -> rule_of m = Some r ->
     exists i rl, nth_error rules i = Some rl /\ br_name rl = r) /\
  (* all methods of a rule return one type *)
  (forall m m' r, In m ms -> In m' ms -> rule_of m = Some r -> rule_of m' = Some r ->
     identical o (ret m) (ret m') = true) /\
  (* the rule types are the ones the methods and the derived rules determine,
     and every rule except S' has one *)
  typing rtl /\
  (forall i rl, nth_error rules i = Some rl -> br_kind rl <> SPrime -> exists t, In (i, t) rtl) /\
  (* every user production has one and only one acceptable method of its rule *)
  (forall pi p, user_production pi p ->
     exists m, method_of p m /\ accepts rtl m p /\
       forall m', method_of p m' -> accepts rtl m' p -> m' = m) /\
  (* no on_ method is left unmatched *)
  (forall m, In m ms -> is_action m = true ->
     exists pi p, user_production pi p /\ method_of p m /\ accepts rtl m p).

Definition binding_ok : Prop := exists rtl, binding_ok_with rtl.

(* only binding_sound and binding_sound' use these three; the later theorems
   of the section depend on Hwf alone *)
Hypothesis Hrefl : forall a, identical o a a = true.
Hypothesis Hsym : forall a b, identical o a b = true -> identical o b a = true.
Hypothesis Htrans : forall a b c,
  identical o a b = true -> identical o b c = true -> identical o a c = true.

Theorem binding_sound : forall b rtl,
  assign_actions o tok err rules prods ms = BOk b rtl -> binding_ok_with rtl.
Proof.
  intros b rtl H. apply assign_ok_inv in H.
  destruct H as [_ [rt [Hfin [Hpan [Herr [Hun [Hb Hrtl]]]]]]]. subst b rtl.
  pose proof Hfin as [H0 [H1 [Hd Hmiss]]].
  assert (Hty : typing (rule_types_of rules rt))
    by (apply rule_types_typing; apply rt_final_sound; auto).
  pose proof (proj1 (phase1_errs_nil_iff o rules ms) H1) as Hgroups.
  unfold binding_ok_with.
  split; [|split; [|split; [|split; [|split; [|split]]]]]; auto.
  - apply phase0_errs_nil_iff. exact H0.
  - intros m r Hms Hr.
    assert (Hg : In m (group acts r)) by (apply in_group_iff; auto).
    destruct (group acts r) as [|f others] eqn:Eg; [contradiction|].
    destruct (Hgroups r f others Eg) as [[i Hf] _].
    apply find_rule_some in Hf. destruct Hf as [rl [Hn Hnm]]. eauto.
  - (* both are identical to the first method of the group *)
    intros m m' r Hms Hms' Hr Hr'.
    assert (Hg : In m (group acts r)) by (apply in_group_iff; auto).
    assert (Hg' : In m' (group acts r)) by (apply in_group_iff; auto).
    destruct (group acts r) as [|f others] eqn:Eg; [contradiction|].
    destruct (Hgroups r f others Eg) as [_ Hid].
    assert (Hall : forall x, In x (f :: others) -> identical o (ret x) (ret f) = true).
    { intros x [<-|Hx]; [apply Hrefl|auto]. }
    eapply Htrans; [apply Hall; exact Hg|]. apply Hsym. apply Hall. exact Hg'.
  - intros i rl Hn Hk. exact (final_typed rt i rl Hfin Hn Hk).
  - intros pi p [Hn Hk].
    assert (Hin : In (pi, p) (user_prods rules prods)) by (apply in_user_prods; auto).
    destruct (matches_single _ _ _ _ _ _ rt pi p Herr Hin) as [m Hm].
    apply (prod_clause_exact o tok err rules prods ms rt pi p Hwf Hn Hk).
    exists (m_id m). apply in_binding. eauto.
  - intros m Hms Hact.
    pose proof (proj1 (unassigned_nil_iff ms _) Hun m (proj2 (in_actions ms m) (conj Hms Hact))) as Hb.
    apply (bound_iff o tok err rules prods ms rt m (wf_ids _ _ _ Hwf) Hms) in Hb.
    destruct Hb as [pi [p [Hup Hm]]]. apply in_user_prods in Hup. destruct Hup as [Hn Hk].
    assert (Hmm : In m (matches o tok err rules rt acts p)) by (rewrite Hm; simpl; auto).
    apply (in_matches_accepts o tok err rules prods ms rt p m Hwf (nth_error_In _ _ Hn)) in Hmm.
    exists pi, p. split; [split; auto|]. exact Hmm.
Qed.

Corollary binding_sound' : forall b rtl,
  assign_actions o tok err rules prods ms = BOk b rtl -> binding_ok.
Proof. intros b rtl H. exists rtl. eapply binding_sound; eauto. Qed.

Lemma phase4_reported : forall rt d,
  rt_final rt -> phase4_panics o tok err rules prods rt acts = false ->
  In d (phase4_errs o tok err rules prods rt acts) ->
  exists ds, assign_actions o tok err rules prods ms = BErr ds /\ In d ds.
Proof.
  intros rt d [H0 [H1 [Hd Hmiss]]] Hpan Hin.
  unfold assign_actions. rewrite Hwf, assign_actions_wf_guard, H0, H1, Hd, Hmiss, Hpan.
  destruct (phase4_errs o tok err rules prods rt acts) as [|e es] eqn:E; [contradiction|].
  eexists. split; [reflexivity|]. apply in_sort_diags. exact Hin.
Qed.

Theorem no_match_reported : forall rt pi p,
  rt_final rt -> phase4_panics o tok err rules prods rt acts = false ->
  user_production pi p ->
  (forall m, method_of p m -> ~ accepts (rule_types_of rules rt) m p) ->
  exists ds, assign_actions o tok err rules prods ms = BErr ds /\ In (DNoMatch pi) ds.
Proof.
  intros rt pi p Hfin Hpan [Hn Hk] Hno. eapply phase4_reported; eauto.
  apply (proj1 (prod_clause_exact o tok err rules prods ms rt pi p Hwf Hn Hk)). exact Hno.
Qed.

Theorem multiple_match_reported : forall rt pi p m1 m2,
  rt_final rt -> phase4_panics o tok err rules prods rt acts = false ->
  user_production pi p ->
  method_of p m1 -> method_of p m2 -> m_id m1 <> m_id m2 ->
  accepts (rule_types_of rules rt) m1 p -> accepts (rule_types_of rules rt) m2 p ->
  exists ds, assign_actions o tok err rules prods ms = BErr ds /\ In (DMultipleMatch pi) ds.
Proof.
  intros rt pi p m1 m2 Hfin Hpan [Hn Hk] H1 H2 Hne Ha1 Ha2. eapply phase4_reported; eauto.
  apply (proj1 (proj2 (prod_clause_exact o tok err rules prods ms rt pi p Hwf Hn Hk))). exists m1, m2. auto.
Qed.

End Verdict.

Print Assumptions binding_sound.
Print Assumptions prod_clause_exact.
Print Assumptions no_match_reported.
Print Assumptions multiple_match_reported.
