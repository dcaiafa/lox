(* C12 (i): the front-end actions that "assume the lexer validated their
   input".  internal/parser/parser.go unescape / hexToRune are mirrored in
   Rang3/ClassModel.v with an explicit UPanic result.  Here: the byte strings
   the front-end lexer can hand to them, transcribed from the Literal and
   ClassChar modes of internal/parser/parser.lox as an automaton over bytes
   (Literal) and a case analysis (ClassChar), each admitting at least what the
   mode produces, and the bytes unescape writes.

   parser.lox:
     @mode Literal {            LITERAL = '\''  (closing quote)
       @frag '\\' [\\'nrt]
       @frag '\\x' HEX HEX   @frag '\\u' HEX{4}   @frag '\\U' HEX{8}
       @frag ~[\\\n] }
     @mode ClassChar {
       CLASS_CHAR = '\\' [\\nrt\-] | '\\x' HEX HEX | '\\u' HEX{4} | '\\U' HEX{8} | ~[\n-] }
   The lexer works on runes, the token text is bytes: a rune other than '\\'
   and '\n' is one or more bytes none of which is 92 or 10 (UTF-8 continuation
   and lead bytes are >= 128; an invalid byte is decoded to U+FFFD, which the
   negated classes contain). *)
From Coq Require Import List ZArith Bool.
From Lox Require Import Rang3.ClassModel Lex.Utf8Model.
Import ListNotations.
Local Open Scope Z_scope.

Definition is_hex (b : Z) : bool := match hex_val b with Some _ => true | None => false end.

(* state of the escape automaton *)
Inductive est := ENorm | EBs | EHex (k : nat) | EBad.

(* [simple c]: the one-letter escapes of the mode; [plain b]: bytes of a rune
   the mode's negated class admits *)
Definition esc_step (simple plain : Z -> bool) (st : est) (b : Z) : est :=
  match st with
  | ENorm => if b =? 92 then EBs else if plain b then ENorm else EBad
  | EBs => if simple b then ENorm
           else if b =? 120 then EHex 2
           else if b =? 117 then EHex 4
           else if b =? 85 then EHex 8
           else EBad
  | EHex (S k) => if is_hex b then match k with O => ENorm | S _ => EHex k end else EBad
  | EHex O => EBad
  | EBad => EBad
  end.

Definition lit_simple (c : Z) : bool := (c =? 92) || (c =? 39) || (c =? 110) || (c =? 114) || (c =? 116).
Definition lit_plain (b : Z) : bool := negb (b =? 92) && negb (b =? 10).

(* text of a LITERAL token between its quotes *)
Definition is_literal_body (l : list Z) : bool :=
  match fold_left (esc_step lit_simple lit_plain) l ENorm with ENorm => true | _ => false end.

(* text of a whole LITERAL token: quote, body, quote (the body may hold a bare
   quote, which the lexer never produces: a superset) *)
Definition is_literal_token (l : list Z) : bool :=
  match l with
  | 39 :: r =>
    match rev r with
    | 39 :: b => is_literal_body (rev b)
    | _ => false
    end
  | _ => false
  end.

Definition cc_simple (c : Z) : bool := (c =? 92) || (c =? 110) || (c =? 114) || (c =? 116) || (c =? 45).

(* text of a CLASS_CHAR token: one escape, the lone backslash, or any byte
   string without a backslash (a superset of the bytes of one rune that is
   neither '\n' nor '-') *)
Definition is_class_char (l : list Z) : bool :=
  match l with
  | [] => false
  | [92] => true
  | 92 :: c :: r =>
    if cc_simple c then match r with [] => true | _ => false end
    else if c =? 120 then Nat.eqb (List.length r) 2 && forallb is_hex r
    else if c =? 117 then Nat.eqb (List.length r) 4 && forallb is_hex r
    else if c =? 85 then Nat.eqb (List.length r) 8 && forallb is_hex r
    else false
  | _ => forallb (fun b => negb (b =? 92)) l
  end.

(* hexToRune returns rune(v) for v < 2^32: the conversion to int32 wraps *)
Definition to_rune (v : Z) : Z := if v <? 2147483648 then v else v - 4294967296.

(* the bytes strings.Builder holds: WriteRune = utf8.AppendRune, WriteByte = the byte mod 256 *)
Definition out_bytes (items : list (bool * Z)) : list Z :=
  flat_map (fun it : bool * Z => if fst it then encode_rune (to_rune (snd it)) else [snd it mod 256]) items.

Definition unescape_bytes (lit : list Z) : option (list Z) :=
  match unescape lit with UOk items => Some (out_bytes items) | UPanic => None end.

(* fixLiteral: strip the quotes *)
Definition fix_literal (tok : list Z) : option (list Z) :=
  match tok with
  | _ :: [] => None                        (* lit[1:0]: slice bounds out of range *)
  | _ :: r => unescape_bytes (removelast r)
  | [] => None
  end.
