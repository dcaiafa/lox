(* A reference LALR(1) construction, independent of lox's merge-on-the-fly
   algorithm (/repo/internal/parsergen/lr1/construct.go):

     canonical LR(1) collection (closure with the textbook FIRST of
     FirstModel.first_tab)  -->  merge the states with equal LR(0) cores  -->
     candidate action cells (mirroring createActions / AddShift's
     once-per-item listing of productions)  -->  ResolveModel.resolve.

   Closure, goto, the collection and the merge share nothing with lox;
   [add_shift], [add_action_item] and the order of [cell_update] mirror
   createActions / ActionMap.AddShift, and the resolution is ResolveModel's
   mirror of resolveConflicts: the comparison with lox is an independent one
   only up to the candidate cells.  The definitions are extracted to OCaml. *)
From Coq Require Import List Arith Bool.
From Lox Require Import Parse.Grammar Gen.FirstModel Gen.ResolveModel.
Import ListNotations.

(* sets as sorted duplicate-free lists *)

Section SetOps.
Context {A : Type}.
Variable cmp : A -> A -> comparison.

Fixpoint ins (x : A) (l : list A) : list A :=
  match l with
  | [] => [x]
  | y :: l' =>
      match cmp x y with
      | Lt => x :: l
      | Eq => l
      | Gt => y :: ins x l'
      end
  end.

Fixpoint mem (x : A) (l : list A) : bool :=
  match l with
  | [] => false
  | y :: l' => match cmp x y with Eq => true | _ => mem x l' end
  end.

Definition sort_set (l : list A) : list A := fold_right ins [] l.
Definition union (l1 l2 : list A) : list A := fold_right ins l2 l1.

Fixpoint list_eqb (l1 l2 : list A) : bool :=
  match l1, l2 with
  | [], [] => true
  | x :: l1', y :: l2' => match cmp x y with Eq => list_eqb l1' l2' | _ => false end
  | _, _ => false
  end.
End SetOps.

(* an LR(1) item: production, dot position, lookahead terminal *)
Definition item := (nat * nat * nat)%type.

Definition item_cmp (a b : item) : comparison :=
  match a, b with
  | (p1, d1, l1), (p2, d2, l2) =>
      match p1 ?= p2 with
      | Eq => match d1 ?= d2 with Eq => l1 ?= l2 | c => c end
      | c => c
      end
  end.

Definition pair_cmp (a b : nat * nat) : comparison :=
  match a, b with
  | (p1, d1), (p2, d2) => match p1 ?= p2 with Eq => d1 ?= d2 | c => c end
  end.

Definition ins_item := ins item_cmp.
Definition imem := mem item_cmp.
Definition items_eqb := list_eqb item_cmp.
Definition core_eqb := list_eqb pair_cmp.

Definition sym_at (g : grammar) (it : item) : option sym :=
  match it with
  | (p, d, _) =>
      match nth_error g p with
      | Some pr => nth_error (rhs pr) d
      | None => None
      end
  end.

(* the production numbers of rule B, in index order *)
Fixpoint prods_from (g : list prod) (i : nat) (B : nat) : list nat :=
  match g with
  | [] => []
  | pr :: g' =>
      if lhs pr =? B then i :: prods_from g' (S i) B else prods_from g' (S i) B
  end.
Definition prods_of (g : grammar) (B : nat) : list nat := prods_from g 0 B.

(* [A -> alpha . B beta, a]  generates  [B -> . gamma, x]  for x in FIRST(beta a) *)
Definition item_gen (tab : list entry) (g : grammar) (it : item) : list item :=
  match it with
  | (p, d, a) =>
      match nth_error g p with
      | Some pr =>
          match nth_error (rhs pr) d with
          | Some (NT B) =>
              let las := first_seq_tab tab (skipn (S d) (rhs pr)) a in
              flat_map (fun q => map (fun x => (q, 0, x)) las) (prods_of g B)
          | _ => []
          end
      | None => []
      end
  end.

Fixpoint add_new (new : list item) (acc work : list item) : list item * list item :=
  match new with
  | [] => (acc, work)
  | x :: new' =>
      if imem x acc then add_new new' acc work
      else add_new new' (ins_item x acc) (x :: work)
  end.

Fixpoint closure_loop (fuel : nat) (tab : list entry) (g : grammar)
  (work acc : list item) : option (list item) :=
  match work with
  | [] => Some acc
  | it :: w =>
      match fuel with
      | 0 => None
      | S f =>
          let '(acc', w') := add_new (item_gen tab g it) acc w in
          closure_loop f tab g w' acc'
      end
  end.

(* [nterms g] is 1 + the largest terminal number of the grammar (at least 2:
   EOF, ERROR) *)
Fixpoint max_term (l : list sym) : nat :=
  match l with
  | [] => 1
  | T t :: l' => Nat.max t (max_term l')
  | NT _ :: l' => max_term l'
  end.
Definition nterms (g : grammar) : nat := S (max_term (flat_map rhs g)).

(* every processed item is in the result; the result has the items of I plus
   at most (#productions * #terminals) items with the dot at 0 *)
Definition closure_fuel (g : grammar) (I : list item) : nat :=
  length I + length g * (nterms g + length I) + 1.

Definition closure_ref (tab : list entry) (g : grammar) (I : list item) : option (list item) :=
  let I' := sort_set item_cmp I in
  closure_loop (closure_fuel g I') tab g I' I'.


Definition advance (g : grammar) (X : sym) (I : list item) : list item :=
  flat_map (fun it =>
    match sym_at g it with
    | Some Y => if sym_eqb Y X then match it with (p, d, a) => [(p, S d, a)] end else []
    | None => []
    end) I.

Definition goto_ref (tab : list entry) (g : grammar) (I : list item) (X : sym) : option (list item) :=
  closure_ref tab g (advance g X I).

Definition sym_mem (X : sym) (l : list sym) : bool := existsb (sym_eqb X) l.

(* the distinct symbols after a dot, in order of first occurrence *)
Fixpoint next_syms_acc (g : grammar) (I : list item) (acc : list sym) : list sym :=
  match I with
  | [] => rev acc
  | it :: I' =>
      match sym_at g it with
      | Some X => if sym_mem X acc then next_syms_acc g I' acc else next_syms_acc g I' (X :: acc)
      | None => next_syms_acc g I' acc
      end
  end.
Definition next_syms (g : grammar) (I : list item) : list sym := next_syms_acc g I [].

Definition trans := (nat * sym * nat)%type.   (* from, symbol, to *)

Fixpoint find_state (J : list item) (states : list (list item)) (i : nat) : option nat :=
  match states with
  | [] => None
  | St :: rest => if items_eqb St J then Some i else find_state J rest (S i)
  end.

Fixpoint process_syms (tab : list entry) (g : grammar) (i : nat) (I : list item)
  (xs : list sym) (states : list (list item)) (tr : list trans)
  : option (list (list item) * list trans) :=
  match xs with
  | [] => Some (states, tr)
  | X :: xs' =>
      match goto_ref tab g I X with
      | None => None
      | Some J =>
          match find_state J states 0 with
          | Some j => process_syms tab g i I xs' states ((i, X, j) :: tr)
          | None => process_syms tab g i I xs' (states ++ [J]) ((i, X, length states) :: tr)
          end
      end
  end.

(* states are numbered in order of discovery; state i is processed at step i *)
Fixpoint lr1_loop (fuel : nat) (tab : list entry) (g : grammar) (i : nat)
  (states : list (list item)) (tr : list trans)
  : option (list (list item) * list trans) :=
  match fuel with
  | 0 => None
  | S f =>
      match nth_error states i with
      | None => Some (states, tr)
      | Some St =>
          match process_syms tab g i St (next_syms g St) states tr with
          | None => None
          | Some (states', tr') => lr1_loop f tab g (S i) states' tr'
          end
      end
  end.

Definition lr1_collection (fuel : nat) (tab : list entry) (g : grammar)
  : option (list (list item) * list trans) :=
  match closure_ref tab g [(0, 0, 0)] with
  | None => None
  | Some I0 => lr1_loop fuel tab g 0 [I0] []
  end.

Definition core_of (I : list item) : list (nat * nat) :=
  sort_set pair_cmp (map (fun it : item => match it with (p, d, _) => (p, d) end) I).

(* lox's LR0Key: the kernel items only (production 0 or dot <> 0) *)
Definition is_kernel (it : item) : bool :=
  match it with (p, d, _) => (p =? 0) || negb (d =? 0) end.
Definition kernel_core_of (I : list item) : list (nat * nat) :=
  core_of (filter is_kernel I).

Definition mstate := (list (nat * nat) * list item)%type.   (* core, items *)

Fixpoint find_core (c : list (nat * nat)) (ms : list mstate) : option nat :=
  match ms with
  | [] => None
  | (c', _) :: rest =>
      if core_eqb c' c then Some 0
      else match find_core c rest with Some j => Some (S j) | None => None end
  end.

Fixpoint merge_into (j : nat) (I : list item) (ms : list mstate) : list mstate :=
  match ms, j with
  | [], _ => []
  | (c, J) :: rest, 0 => (c, union item_cmp I J) :: rest
  | m :: rest, S j' => m :: merge_into j' I rest
  end.

(* returns the merged states and, for each canonical state in order, the
   number of its merged state *)
Fixpoint merge_loop (states : list (list item)) (ms : list mstate) (cmap : list nat)
  : list mstate * list nat :=
  match states with
  | [] => (ms, rev cmap)
  | St :: rest =>
      let c := core_of St in
      match find_core c ms with
      | Some j => merge_loop rest (merge_into j St ms) (j :: cmap)
      | None => merge_loop rest (ms ++ [(c, St)]) (length ms :: cmap)
      end
  end.

Definition merge_states (states : list (list item)) : list mstate * list nat :=
  merge_loop states [] [].

Definition trans_eqb (a b : trans) : bool :=
  match a, b with
  | (f1, X1, t1), (f2, X2, t2) => (f1 =? f2) && sym_eqb X1 X2 && (t1 =? t2)
  end.

Fixpoint map_trans (cmap : list nat) (tr : list trans) (acc : list trans) : list trans :=
  match tr with
  | [] => acc
  | (f, X, t) :: tr' =>
      let e := (nth f cmap 0, X, nth t cmap 0) in
      if existsb (trans_eqb e) acc then map_trans cmap tr' acc
      else map_trans cmap tr' (e :: acc)
  end.

Fixpoint lookup_trans (tr : list trans) (f : nat) (X : sym) : option nat :=
  match tr with
  | [] => None
  | (f', X', t) :: tr' =>
      if (f' =? f) && sym_eqb X' X then Some t else lookup_trans tr' f X
  end.

Definition cellmap := list (nat * list cact).    (* terminal -> actions, sorted by terminal *)

Fixpoint cell_update (t : nat) (f : list cact -> list cact) (m : cellmap) : cellmap :=
  match m with
  | [] => [(t, f [])]
  | (u, c) :: m' =>
      if t <? u then (t, f []) :: m
      else if t =? u then (u, f c) :: m'
      else (u, c) :: cell_update t f m'
  end.

(* ActionMap.AddShift *)
Fixpoint add_shift (tgt p : nat) (cell : list cact) : list cact :=
  match cell with
  | [] => [CShift tgt [p]]
  | CShift tg ps :: rest => CShift tg (ps ++ [p]) :: rest
  | a :: rest => a :: add_shift tgt p rest
  end.

(* A shift whose transition is missing gets the target [nstates], which is no
   state number.  [process_syms] records a transition for every symbol after a
   dot, so this is not expected to arise; it is not proved. *)
Definition add_action_item (g : grammar) (tr : list trans) (nstates : nat) (s : nat)
  (m : cellmap) (it : item) : cellmap :=
  match it with
  | (p, d, a) =>
      match nth_error g p with
      | None => m
      | Some pr =>
          match nth_error (rhs pr) d with
          | None =>
              if d =? length (rhs pr) then
                if p =? 0 then cell_update a (fun c => c ++ [CAccept]) m
                else cell_update a (fun c => c ++ [CReduce p]) m
              else m
          | Some (T t) =>
              let tgt := match lookup_trans tr s (T t) with Some j => j | None => nstates end in
              cell_update t (add_shift tgt p) m
          | Some (NT _) => m
          end
      end
  end.

Definition cells_of_state (g : grammar) (tr : list trans) (nstates : nat) (s : nat)
  (I : list item) : cellmap :=
  fold_left (add_action_item g tr nstates s) I [].

Record cellrow := mk_cellrow {
  c_state : nat;             (* merged state number *)
  c_term : nat;              (* terminal *)
  c_raw : list cact;         (* the candidate actions *)
  c_res : list cact;         (* after resolveConflicts *)
  c_conflict : bool }.       (* this cell sets HasConflicts *)

Record result := mk_result {
  r_ok : bool;                       (* no loop ran out of fuel and FIRST is saturated *)
  r_lr1_states : nat;                (* number of canonical LR(1) states *)
  r_states : list mstate;            (* merged states: (sorted core, sorted items); number = position *)
  r_trans : list trans;              (* transitions between merged states *)
  r_cells : list cellrow;
  r_conflicts : bool }.

Definition rule_of_prod (g : grammar) (p : nat) : nat :=
  match nth_error g p with Some pr => lhs pr | None => 0 end.

Fixpoint rows_of_states (g : grammar) (prec : nat -> nat) (assoc_right : nat -> bool)
  (tr : list trans) (nstates : nat) (s : nat) (ms : list mstate) : list cellrow :=
  match ms with
  | [] => []
  | (_, St) :: rest =>
      map (fun tc : nat * list cact =>
             let (t, c) := tc in
             mk_cellrow s t c
               (resolved_cell prec assoc_right (rule_of_prod g) c)
               (cell_conflict prec assoc_right (rule_of_prod g) c))
          (cells_of_state g tr nstates s St)
      ++ rows_of_states g prec assoc_right tr nstates (S s) rest
  end.

Definition empty_result : result := mk_result false 0 [] [] [] false.

Definition lalr_ref_fuel (fuel : nat) (g : grammar) (prec : nat -> nat)
  (assoc_right : nat -> bool) : result :=
  let tab := first_tab g in
  match lr1_collection fuel tab g with
  | None => empty_result
  | Some (states, tr) =>
      let '(ms, cmap) := merge_states states in
      let mtr := map_trans cmap tr [] in
      let rows := rows_of_states g prec assoc_right mtr (length ms) 0 ms in
      mk_result (stable_b g tab) (length states) ms mtr rows
                (existsb c_conflict rows)
  end.

(* 4000 bounds the number of canonical LR(1) states ([lr1_loop] spends one unit
   per state).  Nothing is proved about it: a larger collection, or a closure
   that exhausts [closure_fuel], gives [empty_result], whose [r_ok] is false,
   and the harness (c04.go) then skips the comparison of the automaton. *)
Definition lalr_ref (g : grammar) (prec : nat -> nat) (assoc_right : nat -> bool) : result :=
  lalr_ref_fuel 4000 g prec assoc_right.

(* convenience for the harness *)
Definition has_conflicts (r : result) : bool := r_conflicts r.

Definition find_state_by_core (c : list (nat * nat)) (r : result) : option nat :=
  find_core c (r_states r).

Definition cell_at (r : result) (s t : nat) : option cellrow :=
  find (fun row => (c_state row =? s) && (c_term row =? t)) (r_cells r).

(* e -> e + e | e * e | n ;  terminals + = 2, * = 3, n = 4 ; rules S' = 0, e = 1 *)
Definition g_calc : grammar :=
  [ mkp 0 [NT 1];
    mkp 1 [NT 1; T 2; NT 1];
    mkp 1 [NT 1; T 3; NT 1];
    mkp 1 [T 4] ].

Definition calc_prec (p : nat) : nat := match p with 1 => 1 | 2 => 2 | _ => 0 end.
Definition no_prec (p : nat) : nat := 0.
Definition all_left (p : nat) : bool := false.

Definition r_calc := lalr_ref g_calc calc_prec all_left.
Definition r_calc_noprec := lalr_ref g_calc no_prec all_left.

Example calc_ok : (r_ok r_calc, r_conflicts r_calc, length (r_states r_calc)) = (true, false, 7).
Proof. vm_compute. reflexivity. Qed.
Example calc_noprec_conflicts : (r_ok r_calc_noprec, r_conflicts r_calc_noprec) = (true, true).
Proof. vm_compute. reflexivity. Qed.
