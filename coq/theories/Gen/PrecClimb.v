(* Executable reference for property C05: the textbook precedence-climbing
   (Pratt) parser for

       e = e OP_i e @left/@right(n_i) | ... | ATOM | '(' e ')'

   and the declarative meaning of "grouped the way a precedence-climbing
   parser would" on trees ([well_grouped]).  The definitions are extracted to
   OCaml. *)
From Coq Require Import List Arith Bool.
Import ListNotations.

(* the operator table, indexed by operator number *)
Record opinfo := { o_level : nat; o_right : bool }.

Inductive etok := EAtom (id : nat) | EOp (op : nat) | ELParen | ERParen.
Inductive etree := TAtom (id : nat) | TBin (op : nat) (l r : etree) | TParen (t : etree).

Fixpoint yield (t : etree) : list etok :=
  match t with
  | TAtom a => [EAtom a]
  | TBin op l r => yield l ++ EOp op :: yield r
  | TParen u => ELParen :: yield u ++ [ERParen]
  end.

(* result of the fuelled functions: PFuel is a marker distinct from a syntax
   error; PrecClimbProofs.fuel_adequate shows it is never returned when
   fuel > length of the input. *)
Inductive pres :=
| POk (t : etree) (rest : list etok)
| PErr
| PFuel.

(* minimal level for the right operand of an operator *)
Definition rmin (oi : opinfo) : nat :=
  if o_right oi then o_level oi else S (o_level oi).

(* parse_expr min  : parse a primary (atom or parenthesised expression), then
                     run the operator loop on it;
   parse_loop min l: l is the left operand built so far; while the next token
                     is an operator of the table with level >= min, consume it,
                     parse its right operand with parse_expr (rmin op) and
                     continue with TBin op l r.
   Both functions consume at least one unit of fuel per token. *)
Fixpoint parse_expr (tbl : list opinfo) (fuel min : nat) (toks : list etok)
  {struct fuel} : pres :=
  match fuel with
  | 0 => PFuel
  | S f =>
      match toks with
      | EAtom a :: rest => parse_loop tbl f min (TAtom a) rest
      | ELParen :: rest =>
          match parse_expr tbl f 0 rest with
          | POk u rest1 =>
              match rest1 with
              | ERParen :: rest2 => parse_loop tbl f min (TParen u) rest2
              | _ => PErr
              end
          | PErr => PErr
          | PFuel => PFuel
          end
      | _ => PErr
      end
  end
with parse_loop (tbl : list opinfo) (fuel min : nat) (l : etree) (toks : list etok)
  {struct fuel} : pres :=
  match fuel with
  | 0 => PFuel
  | S f =>
      match toks with
      | EOp op :: rest =>
          match nth_error tbl op with
          | None => PErr                       (* operator not in the table *)
          | Some oi =>
              if min <=? o_level oi then
                match parse_expr tbl f (rmin oi) rest with
                | POk r rest1 => parse_loop tbl f min (TBin op l r) rest1
                | PErr => PErr
                | PFuel => PFuel
                end
              else POk l toks
          end
      | _ => POk l toks
      end
  end.

Definition climb_res (tbl : list opinfo) (toks : list etok) : pres :=
  parse_expr tbl (S (length toks)) 0 toks.

(* None on a syntax error, an unknown operator or trailing tokens *)
Definition climb (tbl : list opinfo) (toks : list etok) : option etree :=
  match climb_res tbl toks with
  | POk t [] => Some t
  | _ => None
  end.

(* for the harness: true iff the fuel ran out (proved impossible) *)
Definition climb_out_of_fuel (tbl : list opinfo) (toks : list etok) : bool :=
  match climb_res tbl toks with PFuel => true | _ => false end.

Definition lev (tbl : list opinfo) (op : nat) : nat :=
  match nth_error tbl op with Some oi => o_level oi | None => 0 end.
Definition rgt (tbl : list opinfo) (op : nat) : bool :=
  match nth_error tbl op with Some oi => o_right oi | None => false end.

(* left operand l of operator op: a bare TBin op' must bind tighter, or as
   tight with op left-associative *)
Definition ok_left (tbl : list opinfo) (op : nat) (l : etree) : bool :=
  match l with
  | TBin op' _ _ =>
      (lev tbl op <? lev tbl op') || ((lev tbl op' =? lev tbl op) && negb (rgt tbl op))
  | _ => true
  end.

(* right operand r of operator op: tighter, or as tight with op right-associative *)
Definition ok_right (tbl : list opinfo) (op : nat) (r : etree) : bool :=
  match r with
  | TBin op' _ _ =>
      (lev tbl op <? lev tbl op') || ((lev tbl op' =? lev tbl op) && rgt tbl op)
  | _ => true
  end.

Fixpoint well_grouped (tbl : list opinfo) (t : etree) : bool :=
  match t with
  | TAtom _ => true
  | TParen u => well_grouped tbl u
  | TBin op l r =>
      ok_left tbl op l && ok_right tbl op r && well_grouped tbl l && well_grouped tbl r
  end.

(* every operator token is an index of the table *)
Definition toks_known (tbl : list opinfo) (toks : list etok) : bool :=
  forallb (fun k => match k with EOp op => op <? length tbl | _ => true end) toks.

Definition ops_known (tbl : list opinfo) (t : etree) : bool := toks_known tbl (yield t).

(* operators sharing a level share their associativity *)
Definition uniform (tbl : list opinfo) : Prop :=
  forall a b oa ob, nth_error tbl a = Some oa -> nth_error tbl b = Some ob ->
    o_level oa = o_level ob -> o_right oa = o_right ob.

Definition uniformb (tbl : list opinfo) : bool :=
  forallb (fun oa =>
    forallb (fun ob => negb (o_level oa =? o_level ob) || eqb (o_right oa) (o_right ob)) tbl) tbl.

(* Examples: operators 0 = '+' (1, left), 1 = '*' (2, left), 2 = '^' (3, right),
   3 = '-' (1, left); atoms a = 0, b = 1, c = 2 *)

Definition ex_tbl : list opinfo :=
  [ {| o_level := 1; o_right := false |};
    {| o_level := 2; o_right := false |};
    {| o_level := 3; o_right := true |};
    {| o_level := 1; o_right := false |} ].

Local Notation a := (EAtom 0).
Local Notation b := (EAtom 1).
Local Notation c := (EAtom 2).
Local Notation ADD := (EOp 0).
Local Notation MUL := (EOp 1).
Local Notation POW := (EOp 2).
Local Notation SUB := (EOp 3).
Local Notation A := (TAtom 0).
Local Notation B := (TAtom 1).
Local Notation C := (TAtom 2).

Example ex_uniform : uniformb ex_tbl = true.
Proof. vm_compute. reflexivity. Qed.

(* a + b * c = a + (b * c) *)
Example ex_add_mul : climb ex_tbl [a; ADD; b; MUL; c] = Some (TBin 0 A (TBin 1 B C)).
Proof. vm_compute. reflexivity. Qed.
(* a * b + c = (a * b) + c *)
Example ex_mul_add : climb ex_tbl [a; MUL; b; ADD; c] = Some (TBin 0 (TBin 1 A B) C).
Proof. vm_compute. reflexivity. Qed.
(* a - b - c = (a - b) - c *)
Example ex_left : climb ex_tbl [a; SUB; b; SUB; c] = Some (TBin 3 (TBin 3 A B) C).
Proof. vm_compute. reflexivity. Qed.
(* a - b + c = (a - b) + c : two operators sharing a left level *)
Example ex_left_mixed : climb ex_tbl [a; SUB; b; ADD; c] = Some (TBin 0 (TBin 3 A B) C).
Proof. vm_compute. reflexivity. Qed.
(* a ^ b ^ c = a ^ (b ^ c) *)
Example ex_right : climb ex_tbl [a; POW; b; POW; c] = Some (TBin 2 A (TBin 2 B C)).
Proof. vm_compute. reflexivity. Qed.
(* (a + b) * c : parentheses override *)
Example ex_paren : climb ex_tbl [ELParen; a; ADD; b; ERParen; MUL; c]
                   = Some (TBin 1 (TParen (TBin 0 A B)) C).
Proof. vm_compute. reflexivity. Qed.
(* a ^ (b + c) ^ a * b + c = ((a ^ ((b + c) ^ a)) * b) + c *)
Example ex_mixed :
  climb ex_tbl [a; POW; ELParen; b; ADD; c; ERParen; POW; a; MUL; b; ADD; c]
  = Some (TBin 0 (TBin 1 (TBin 2 A (TBin 2 (TParen (TBin 0 B C)) A)) B) C).
Proof. vm_compute. reflexivity. Qed.
(* syntax errors, trailing tokens, an unknown operator: None, and never for lack of fuel *)
Example ex_err_missing_operand : climb ex_tbl [a; ADD] = None.
Proof. vm_compute. reflexivity. Qed.
Example ex_err_two_ops : climb ex_tbl [a; ADD; MUL; b] = None.
Proof. vm_compute. reflexivity. Qed.
Example ex_err_unclosed : climb ex_tbl [ELParen; a; ADD; b] = None.
Proof. vm_compute. reflexivity. Qed.
Example ex_err_trailing : climb ex_tbl [a; ADD; b; ERParen] = None.
Proof. vm_compute. reflexivity. Qed.
Example ex_err_empty : climb ex_tbl [] = None.
Proof. vm_compute. reflexivity. Qed.
Example ex_err_unknown_op : climb ex_tbl [a; EOp 7; b] = None.
Proof. vm_compute. reflexivity. Qed.
Example ex_err_not_fuel :
  map (climb_out_of_fuel ex_tbl)
      [[a; ADD]; [ELParen; ELParen; ELParen; ELParen]; [a; ADD; b; ERParen]; []]
  = [false; false; false; false].
Proof. vm_compute. reflexivity. Qed.
(* the reference tree of each example is well grouped; the other grouping is not *)
Example ex_wg :
  well_grouped ex_tbl (TBin 0 A (TBin 1 B C)) = true /\
  well_grouped ex_tbl (TBin 1 (TBin 0 A B) C) = false /\
  well_grouped ex_tbl (TBin 3 (TBin 3 A B) C) = true /\
  well_grouped ex_tbl (TBin 3 A (TBin 3 B C)) = false /\
  well_grouped ex_tbl (TBin 2 A (TBin 2 B C)) = true /\
  well_grouped ex_tbl (TBin 2 (TBin 2 A B) C) = false /\
  well_grouped ex_tbl (TBin 1 (TParen (TBin 0 A B)) C) = true.
Proof. vm_compute. repeat split. Qed.
