(* Theorems about the reference LALR(1) construction (LALRRef.v): when
   [closure_ref] does not run out of fuel its result is the least set closed
   under the textbook rule, goto advances the dot, and merging keeps one state
   per LR(0) core, each the union of the canonical states with that core.  The
   collection loop and the cell construction are exercised by examples only. *)
From Coq Require Import List Arith Lia.
From Lox Require Import Base.ListFacts Parse.Grammar Gen.FirstModel Gen.ResolveModel Gen.LALRRef.
Import ListNotations.

Section SetFacts.
Context {A : Type} (cmp : A -> A -> comparison).
Hypothesis cmp_eq : forall a b, cmp a b = Eq <-> a = b.

Lemma cmp_refl a : cmp a a = Eq.
Proof. now apply cmp_eq. Qed.

Lemma ins_In x y l : In x (ins cmp y l) <-> y = x \/ In x l.
Proof.
  induction l as [|z l IH]; cbn [ins].
  - reflexivity.
  - destruct (cmp y z) eqn:Hc.
    + apply cmp_eq in Hc. subst z. cbn [In]. split; [auto | intros [<- | H]; auto].
    + reflexivity.
    + cbn [In]. rewrite IH. clear. tauto.
Qed.

Lemma mem_In x l : mem cmp x l = true <-> In x l.
Proof.
  induction l as [|z l IH]; cbn [mem In].
  - split; [discriminate | intros []].
  - destruct (cmp x z) eqn:Hc.
    1:{ apply cmp_eq in Hc. subst z. split; auto. }
    all: rewrite IH; split; [now right|];
      intros [<- | H]; [rewrite cmp_refl in Hc; discriminate | exact H].
Qed.

Lemma sort_set_In x l : In x (sort_set cmp l) <-> In x l.
Proof.
  induction l as [|y l IH]; cbn [sort_set fold_right]; [reflexivity|].
  fold (sort_set cmp l). rewrite ins_In, IH. reflexivity.
Qed.

Lemma union_In x l1 l2 : In x (union cmp l1 l2) <-> In x l1 \/ In x l2.
Proof.
  induction l1 as [|y l1 IH]; cbn [union fold_right].
  - cbn. clear. tauto.
  - fold (union cmp l1 l2). rewrite ins_In, IH. cbn. clear. tauto.
Qed.

Lemma list_eqb_eq l1 l2 : list_eqb cmp l1 l2 = true <-> l1 = l2.
Proof.
  revert l2. induction l1 as [|x l1 IH]; intros [|y l2]; cbn [list_eqb];
    try (split; [discriminate | discriminate]); [split; reflexivity|].
  destruct (cmp x y) eqn:Hc.
  1:{ apply cmp_eq in Hc. subst y. rewrite IH. split; [intros ->; reflexivity | now intros [= ->]]. }
  all: split; [discriminate|]; intros [= -> _]; rewrite cmp_refl in Hc; discriminate.
Qed.
End SetFacts.

Lemma item_cmp_eq a b : item_cmp a b = Eq <-> a = b.
Proof.
  destruct a as [[p1 d1] l1], b as [[p2 d2] l2]. unfold item_cmp. split.
  - intros H. destruct (p1 ?= p2) eqn:Hp; try discriminate.
    destruct (d1 ?= d2) eqn:Hd; try discriminate.
    apply Nat.compare_eq_iff in Hp, Hd, H. now subst.
  - intros H. inversion H; subst. now rewrite !Nat.compare_refl.
Qed.

Lemma pair_cmp_eq a b : pair_cmp a b = Eq <-> a = b.
Proof.
  destruct a as [p1 d1], b as [p2 d2]. unfold pair_cmp. split.
  - intros H. destruct (p1 ?= p2) eqn:Hp; try discriminate.
    apply Nat.compare_eq_iff in Hp, H. now subst.
  - intros H. inversion H; subst. now rewrite !Nat.compare_refl.
Qed.

Lemma sym_eqb_eq X Y : sym_eqb X Y = true <-> X = Y.
Proof.
  destruct X as [x|x], Y as [y|y]; cbn; try (split; congruence);
    rewrite Nat.eqb_eq; split; congruence.
Qed.

Lemma union_item_In x l1 l2 : In x (union item_cmp l1 l2) <-> In x l1 \/ In x l2.
Proof. apply union_In, item_cmp_eq. Qed.

(* the textbook closure rule, w.r.t. a FIRST table *)
Inductive lr1_closure (tab : list entry) (g : grammar) (I : list item) : item -> Prop :=
| lc_base x : In x I -> lr1_closure tab g I x
| lc_step p d a pr B q prB x :
    lr1_closure tab g I (p, d, a) ->
    nth_error g p = Some pr ->
    nth_error (rhs pr) d = Some (NT B) ->          (* A -> alpha . B beta *)
    nth_error g q = Some prB -> lhs prB = B ->     (* B -> gamma          *)
    In x (first_seq_tab tab (skipn (S d) (rhs pr)) a) ->   (* x in FIRST(beta a) *)
    lr1_closure tab g I (q, 0, x).

Lemma prods_from_In g i B q :
  In q (prods_from g i B) <->
  exists k pr, q = i + k /\ nth_error g k = Some pr /\ lhs pr = B.
Proof.
  revert i. induction g as [|pr0 g IH]; intros i; cbn [prods_from].
  - split; [intros [] | intros ([|k] & pr & _ & H & _); discriminate].
  - destruct (Nat.eqb_spec (lhs pr0) B) as [Hb|Hb]; cbn [In]; rewrite IH; split.
    + intros [<- | (k & pr & -> & H)]; [exists 0, pr0 | exists (S k), pr]; split; auto; lia.
    + intros ([|k] & pr & -> & H); [left; lia | right; exists k, pr; split; [lia | exact H]].
    + intros (k & pr & -> & H). exists (S k), pr. split; [lia | exact H].
    + intros ([|k] & pr & -> & H & Hl); [cbn in H; congruence|].
      exists k, pr. split; [lia | auto].
Qed.

Lemma prods_of_In g B q :
  In q (prods_of g B) <-> exists pr, nth_error g q = Some pr /\ lhs pr = B.
Proof.
  unfold prods_of. rewrite prods_from_In. split.
  - intros (k & pr & -> & H). exists pr. exact H.
  - intros (pr & H). exists q, pr. auto.
Qed.

Lemma item_gen_spec tab g p d a y :
  In y (item_gen tab g (p, d, a)) <->
  exists pr B q prB x,
    nth_error g p = Some pr /\ nth_error (rhs pr) d = Some (NT B) /\
    nth_error g q = Some prB /\ lhs prB = B /\
    In x (first_seq_tab tab (skipn (S d) (rhs pr)) a) /\ y = (q, 0, x).
Proof.
  unfold item_gen. split.
  - destruct (nth_error g p) as [pr|] eqn:Hp; [|intros []].
    destruct (nth_error (rhs pr) d) as [[t|B]|] eqn:Hd; try (intros []).
    intros Hin. apply in_flat_map in Hin. destruct Hin as (q & Hq & Hin).
    apply in_map_iff in Hin. destruct Hin as (x & <- & Hx).
    apply prods_of_In in Hq. destruct Hq as (prB & HprB & Hl).
    exists pr, B, q, prB, x. auto 10.
  - intros (pr & B & q & prB & x & Hp & Hd & Hq & Hl & Hx & ->).
    rewrite Hp, Hd. apply in_flat_map. exists q. split.
    + apply prods_of_In. exists prB. auto.
    + apply in_map_iff. exists x. auto.
Qed.

Lemma add_new_spec new : forall acc work acc' work',
  add_new new acc work = (acc', work') ->
  (forall x, In x acc' <-> In x acc \/ In x new) /\
  (forall x, In x work' -> In x work \/ In x new) /\
  (forall x, In x work -> In x work') /\
  (forall x, In x acc' -> In x acc \/ In x work').
Proof.
  induction new as [|y new IH]; intros acc work acc' work' H; cbn [add_new] in H.
  - injection H as <- <-. cbn. tauto.
  - destruct (imem y acc) eqn:Hm; destruct (IH _ _ _ _ H) as (H1 & H2 & H3 & H4);
      (split; [|split; [|split]]); intros x.
    + apply (mem_In _ item_cmp_eq) in Hm. rewrite H1. cbn [In]. split; [tauto|].
      intros [Hx | [<- | Hx]]; auto.
    + intros Hx. apply H2 in Hx. cbn [In]. tauto.
    + exact (H3 x).
    + exact (H4 x).
    + rewrite H1, (ins_In _ item_cmp_eq). cbn [In]. tauto.
    + intros Hx. apply H2 in Hx. cbn [In] in *. tauto.
    + intros Hx. apply H3. now right.
    + intros Hx. apply H4 in Hx. rewrite (ins_In _ item_cmp_eq) in Hx.
      destruct Hx as [[<- | Hx] | Hx]; auto. right. apply H3. now left.
Qed.

Lemma lr1_closure_gen tab g I x y :
  lr1_closure tab g I x -> In y (item_gen tab g x) -> lr1_closure tab g I y.
Proof.
  intros Hx Hy. destruct x as [[p d] a]. apply item_gen_spec in Hy.
  destruct Hy as (pr & B & q & prB & z & Hp & Hd & Hq & Hl & Hz & ->).
  eapply lc_step; eauto.
Qed.

Definition closure_inv tab g (I work acc : list item) : Prop :=
  incl I acc /\
  incl work acc /\
  (forall x, In x acc -> In x work \/ forall y, In y (item_gen tab g x) -> In y acc) /\
  (forall x, In x acc -> lr1_closure tab g I x).

Lemma closure_loop_inv tab g I fuel : forall work acc C,
  closure_loop fuel tab g work acc = Some C ->
  closure_inv tab g I work acc -> closure_inv tab g I [] C.
Proof.
  induction fuel as [|f IH]; intros work acc C H Hinv; destruct work as [|it w]; cbn [closure_loop] in H.
  - inversion H; subst. exact Hinv.
  - discriminate.
  - inversion H; subst. exact Hinv.
  - destruct (add_new (item_gen tab g it) acc w) as [acc' w'] eqn:Hadd.
    apply (IH _ _ _ H). clear IH H.
    destruct (add_new_spec _ _ _ _ _ Hadd) as (H1 & H2 & H3 & H4).
    destruct Hinv as (Ha & Hb & Hc & Hd).
    assert (Hsub : incl acc acc') by (intros x Hx; apply H1; now left).
    repeat split.
    + intros x Hx. apply Hsub, Ha, Hx.
    + intros x Hx. apply H2 in Hx. apply H1. destruct Hx as [Hx | Hx]; [left; apply Hb; now right | now right].
    + intros x Hx. destruct (H4 x Hx) as [Hacc | Hw]; [|now left].
      destruct (Hc x Hacc) as [[<- | Hw] | Hg].
      * right. intros y Hy. apply H1. now right.
      * left. now apply H3.
      * right. intros y Hy. apply Hsub. now apply Hg.
    + intros x Hx. apply H1 in Hx. destruct Hx as [Hx | Hx]; [now apply Hd|].
      apply (lr1_closure_gen tab g I it); [|exact Hx]. apply Hd, Hb. now left.
Qed.

Lemma closure_ref_spec tab g I C :
  closure_ref tab g I = Some C ->
  incl I C /\
  (forall x y, In x C -> In y (item_gen tab g x) -> In y C) /\
  (forall x, In x C -> lr1_closure tab g I x).
Proof.
  unfold closure_ref. intros H.
  apply (closure_loop_inv tab g I) in H.
  - destruct H as (Ha & _ & Hc & Hd). split; [exact Ha|]. split; [|exact Hd].
    intros x y Hx Hy. destruct (Hc x Hx) as [[] | Hg]. now apply Hg.
  - repeat split.
    + intros x Hx. now apply (sort_set_In _ item_cmp_eq).
    + intros x Hx. exact Hx.
    + intros x Hx. now left.
    + intros x Hx. apply lc_base. now apply (sort_set_In _ item_cmp_eq).
Qed.

Theorem closure_ref_closed tab g I C :
  closure_ref tab g I = Some C ->
  incl I C /\
  (forall p d a pr B q prB x,
     In (p, d, a) C ->
     nth_error g p = Some pr -> nth_error (rhs pr) d = Some (NT B) ->
     nth_error g q = Some prB -> lhs prB = B ->
     In x (first_seq_tab tab (skipn (S d) (rhs pr)) a) ->
     In (q, 0, x) C).
Proof.
  intros H. destruct (closure_ref_spec _ _ _ _ H) as (Ha & Hc & _). split; [exact Ha|].
  intros p d a pr B q prB x Hin Hp Hd Hq Hl Hx. apply (Hc (p, d, a)); [exact Hin|].
  apply item_gen_spec. exists pr, B, q, prB, x. auto 10.
Qed.

Theorem closure_ref_sound tab g I C :
  closure_ref tab g I = Some C -> forall x, In x C -> lr1_closure tab g I x.
Proof. intros H. apply (closure_ref_spec _ _ _ _ H). Qed.

Theorem closure_ref_iff tab g I C :
  closure_ref tab g I = Some C -> forall x, In x C <-> lr1_closure tab g I x.
Proof.
  intros H x. split; [now apply (closure_ref_sound tab g I C)|].
  destruct (closure_ref_closed _ _ _ _ H) as (Ha & Hc).
  induction 1 as [y Hy | p d a pr B q prB y Hcl IH Hp Hd Hq Hl Hy]; [now apply Ha|].
  eapply Hc; eauto.
Qed.

(* with the table the construction uses, the rule reads  x in first_seq_spec g beta a *)
Corollary closure_ref_first_spec g I C :
  closure_ref (first_tab g) g I = Some C ->
  incl I C /\
  (forall p d a pr B q prB x,
     In (p, d, a) C ->
     nth_error g p = Some pr -> nth_error (rhs pr) d = Some (NT B) ->
     nth_error g q = Some prB -> lhs prB = B ->
     In x (first_seq_spec g (skipn (S d) (rhs pr)) a) ->
     In (q, 0, x) C) /\
  (forall x, In x C <-> lr1_closure (first_tab g) g I x).
Proof.
  intros H. destruct (closure_ref_closed _ _ _ _ H) as (Ha & Hc).
  split; [exact Ha|]. split; [exact Hc|]. now apply closure_ref_iff.
Qed.

Lemma advance_In g X I y :
  In y (advance g X I) <->
  exists p d a, In (p, d, a) I /\ sym_at g (p, d, a) = Some X /\ y = (p, S d, a).
Proof.
  unfold advance. rewrite in_flat_map. split.
  - intros (it & Hit & Hy). destruct (sym_at g it) as [Y|] eqn:Hs; [|destruct Hy].
    destruct (sym_eqb Y X) eqn:He; [|destruct Hy].
    apply sym_eqb_eq in He. subst Y. destruct it as [[p d] a].
    destruct Hy as [<- | []]. exists p, d, a. auto.
  - intros (p & d & a & Hin & Hs & ->). exists (p, d, a). split; [exact Hin|].
    rewrite Hs. assert (He : sym_eqb X X = true) by now apply sym_eqb_eq.
    rewrite He. now left.
Qed.

Theorem goto_ref_kernel tab g I X J :
  goto_ref tab g I X = Some J ->
  (forall p d a, In (p, d, a) I -> sym_at g (p, d, a) = Some X -> In (p, S d, a) J) /\
  (forall x, In x J <-> lr1_closure tab g (advance g X I) x).
Proof.
  unfold goto_ref. intros H. split; [|now apply closure_ref_iff].
  intros p d a Hin Hs. apply (closure_ref_iff _ _ _ _ H). apply lc_base.
  apply advance_In. exists p, d, a. auto.
Qed.

(* every kernel item (dot > 0) of goto(I, X) is an advanced item of I: the
   closure rule only adds items with the dot at 0 *)
Corollary goto_ref_kernel_items tab g I X J p d a :
  goto_ref tab g I X = Some J -> In (p, S d, a) J ->
  In (p, d, a) I /\ sym_at g (p, d, a) = Some X.
Proof.
  intros H Hin. apply (proj2 (goto_ref_kernel _ _ _ _ _ H)) in Hin.
  inversion Hin as [x Hx | ]; subst.
  apply advance_In in Hx. destruct Hx as (p' & d' & a' & Hi & Hs & Heq).
  inversion Heq; subst. auto.
Qed.

Lemma core_of_In St p d : In (p, d) (core_of St) <-> exists a, In (p, d, a) St.
Proof.
  unfold core_of. rewrite (sort_set_In pair_cmp pair_cmp_eq), in_map_iff. split.
  - intros ([[p' d'] a] & Heq & Hin). inversion Heq; subst. exists a. exact Hin.
  - intros (a & Hin). exists (p, d, a). auto.
Qed.

Lemma core_eqb_eq c1 c2 : core_eqb c1 c2 = true <-> c1 = c2.
Proof. apply list_eqb_eq, pair_cmp_eq. Qed.

Lemma find_core_some c ms j :
  find_core c ms = Some j -> exists J, nth_error ms j = Some (c, J).
Proof.
  revert j. induction ms as [|[c' J'] ms IH]; intros j; cbn [find_core]; [discriminate|].
  destruct (core_eqb c' c) eqn:He.
  - intros H. inversion H; subst. apply core_eqb_eq in He. subst c'. exists J'. reflexivity.
  - destruct (find_core c ms) as [k|] eqn:Hf; [|discriminate].
    intros H. inversion H; subst. destruct (IH k eq_refl) as (J & HJ). exists J. exact HJ.
Qed.

Lemma find_core_none c ms : find_core c ms = None -> ~ In c (map fst ms).
Proof.
  induction ms as [|[c' J'] ms IH]; cbn [find_core map fst In]; [tauto|].
  destruct (core_eqb c' c) eqn:He; [discriminate|].
  destruct (find_core c ms) as [k|] eqn:Hf; [discriminate|].
  intros _ [Heq | Hin]; [|now apply IH].
  subst c'. assert (Ht : core_eqb c c = true) by now apply core_eqb_eq. congruence.
Qed.

Lemma merge_into_nth St : forall ms j c J,
  nth_error ms j = Some (c, J) ->
  nth_error (merge_into j St ms) j = Some (c, union item_cmp St J) /\
  (forall k, k <> j -> nth_error (merge_into j St ms) k = nth_error ms k) /\
  map fst (merge_into j St ms) = map fst ms.
Proof.
  induction ms as [|[c0 J0] ms IH]; intros j c J Hn.
  - destruct j; discriminate.
  - destruct j as [|j]; cbn [merge_into].
    + cbn in Hn. inversion Hn; subst. split; [reflexivity|]. split; [|reflexivity].
      intros [|k] Hk; [congruence | reflexivity].
    + cbn in Hn. destruct (IH j c J Hn) as (H1 & H2 & H3). split; [exact H1|]. split.
      * intros [|k] Hk; [reflexivity|]. cbn. apply H2. congruence.
      * cbn. now rewrite H3.
Qed.

Definition mapped (ms : list mstate) (St : list item) (j : nat) : Prop :=
  exists J, nth_error ms j = Some (core_of St, J) /\ incl St J.

(* [all] is the whole list of canonical states, [done] the prefix merged so
   far, [cm] the merged state number of each state of [done], in order *)
Record minv (all done : list (list item)) (ms : list mstate) (cm : list nat) : Prop := {
  mi_core : forall m, In m ms ->
            forall p d, In (p, d) (fst m) <-> exists a, In (p, d, a) (snd m);
  mi_nodup : NoDup (map fst ms);
  mi_from : forall c J x, In (c, J) ms -> In x J ->
            exists St, In St all /\ core_of St = c /\ In x St;
  mi_map : Forall2 (mapped ms) done cm }.

Lemma merge_into_In St (ms : list mstate) j c J m :
  nth_error ms j = Some (c, J) -> In m (merge_into j St ms) ->
  m = (c, union item_cmp St J) \/ In m ms.
Proof.
  intros Hj Hm. destruct (merge_into_nth St ms j c J Hj) as (H1 & H2 & _).
  apply In_nth_error in Hm. destruct Hm as (k & Hk).
  destruct (Nat.eq_dec k j) as [-> | Hne].
  - left. congruence.
  - right. rewrite (H2 k Hne) in Hk. eapply nth_error_In; eauto.
Qed.

Lemma mapped_snoc (ms ms2 : list mstate) done cm St j :
  (forall k c J, nth_error ms k = Some (c, J) ->
     exists J', nth_error ms2 k = Some (c, J') /\ incl J J') ->
  mapped ms2 St j -> Forall2 (mapped ms) done cm ->
  Forall2 (mapped ms2) (done ++ [St]) (cm ++ [j]).
Proof.
  intros Hle Hj Hmap. apply Forall2_app; [|now repeat constructor].
  induction Hmap as [|S0 k l l' (J & Hn & Hi) _ IH]; constructor; [|exact IH].
  destruct (Hle _ _ _ Hn) as (J' & Hn' & Hi'). exists J'. split; [exact Hn'|].
  intros x Hx. apply Hi', Hi, Hx.
Qed.

Lemma merge_loop_inv : forall rest done ms cmap ms' cm',
  merge_loop rest ms cmap = (ms', cm') ->
  minv (done ++ rest) done ms (rev cmap) -> minv (done ++ rest) (done ++ rest) ms' cm'.
Proof.
  induction rest as [|St rest IH]; intros done ms cmap ms' cm' H Hinv; cbn [merge_loop] in H.
  - inversion H; subst. rewrite app_nil_r in *. exact Hinv.
  - replace (done ++ St :: rest) with ((done ++ [St]) ++ rest) in *
      by (rewrite <- app_assoc; reflexivity).
    destruct Hinv as [Hcore Hnd Hfrom Hmap].
    assert (HSt : In St ((done ++ [St]) ++ rest)) by (rewrite !in_app_iff; cbn; auto).
    destruct (find_core (core_of St) ms) as [j|] eqn:Hf; apply (IH _ _ _ _ _ H); clear IH H.
    + (* the core is already there: St joins state j *)
      destruct (find_core_some _ _ _ Hf) as (J & Hj).
      pose proof (nth_error_In _ _ Hj) as HJ.
      destruct (merge_into_nth St ms j _ _ Hj) as (H1 & H2 & H3).
      constructor.
      * intros m Hm. destruct (merge_into_In _ _ _ _ _ _ Hj Hm) as [-> | Hm']; [|now apply Hcore].
        intros p d. cbn [fst snd]. rewrite core_of_In. split.
        -- intros (a & Ha). exists a. apply union_item_In. now left.
        -- intros (a & Ha). apply union_item_In in Ha. destruct Ha as [Ha | Ha]; [now exists a|].
           apply core_of_In, (Hcore _ HJ). now exists a.
      * now rewrite H3.
      * intros c J0 x Hin Hx.
        destruct (merge_into_In _ _ _ _ _ _ Hj Hin) as [[= -> ->] | Hin']; [|now apply (Hfrom c J0)].
        apply union_item_In in Hx. destruct Hx as [Hx | Hx]; [now exists St | now apply (Hfrom _ J)].
      * cbn [rev]. apply (mapped_snoc ms); [| |exact Hmap].
        -- intros k c J0 Hk. destruct (Nat.eq_dec k j) as [-> | Hne].
           ++ rewrite Hj in Hk. injection Hk as <- <-. exists (union item_cmp St J).
              split; [exact H1|]. intros x Hx. apply union_item_In. now right.
           ++ exists J0. rewrite (H2 k Hne). split; [exact Hk | apply incl_refl].
        -- exists (union item_cmp St J). split; [exact H1|].
           intros x Hx. apply union_item_In. now left.
    + (* a new core: St becomes the last state *)
      pose proof (find_core_none _ _ Hf) as Hnot.
      constructor.
      * intros m Hm. apply in_app_or in Hm. destruct Hm as [Hm | [<- | []]]; [now apply Hcore|].
        intros p d. cbn [fst snd]. apply core_of_In.
      * rewrite map_app. cbn [map fst]. now apply NoDup_snoc.
      * intros c J0 x Hin Hx. apply in_app_or in Hin.
        destruct Hin as [Hin | [[= <- <-] | []]]; [now apply (Hfrom c J0) | now exists St].
      * cbn [rev]. apply (mapped_snoc ms); [| |exact Hmap].
        -- intros k c J0 Hk. exists J0. split; [|apply incl_refl].
           rewrite nth_error_app1; [exact Hk|]. apply nth_error_Some. congruence.
        -- exists St. split; [|apply incl_refl].
           rewrite nth_error_app2 by lia. now rewrite Nat.sub_diag.
Qed.

Theorem merge_preserves_core states ms cmap :
  merge_states states = (ms, cmap) ->
  (* one merged state per core *)
  NoDup (map fst ms) /\
  (* the key of a merged state is the LR(0) core of its items *)
  (forall c J, In (c, J) ms -> forall p d, In (p, d) c <-> exists a, In (p, d, a) J) /\
  (* every item of a merged state comes from a canonical state with that core *)
  (forall c J x, In (c, J) ms -> In x J ->
     exists St, In St states /\ core_of St = c /\ In x St) /\
  (* canonical state i is contained in merged state (nth i cmap), of the same core *)
  Forall2 (mapped ms) states cmap.
Proof.
  unfold merge_states. intros H.
  apply (merge_loop_inv states [] [] [] ms cmap) in H.
  - destruct H as [Hcore Hnd Hfrom Hmap]. split; [exact Hnd|].
    split; [|split; [exact Hfrom | exact Hmap]].
    intros c J Hin. exact (Hcore (c, J) Hin).
  - constructor; cbn.
    + intros m [].
    + constructor.
    + intros c J x [].
    + constructor.
Qed.

(* hence a merged state is exactly the union of the canonical states with its core *)
Corollary merge_union states ms cmap c J :
  merge_states states = (ms, cmap) -> In (c, J) ms ->
  forall x, In x J <-> exists St, In St states /\ core_of St = c /\ In x St.
Proof.
  intros H Hin x. destruct (merge_preserves_core _ _ _ H) as (Hnd & _ & Hfrom & Hmap).
  split; [now apply Hfrom|].
  intros (St & Hs & Hc & Hx).
  assert (Hex : exists j, mapped ms St j).
  { clear -Hmap Hs. induction Hmap as [|S0 j l l' Hm _ IH]; [destruct Hs|].
    destruct Hs as [<- | Hs]; [exists j; exact Hm | now apply IH]. }
  destruct Hex as (j & J' & Hn & Hi). rewrite Hc in Hn.
  apply nth_error_In in Hn.
  rewrite (NoDup_map_fst_inj ms c J J' Hnd Hin Hn). now apply Hi.
Qed.

(* the calculator grammar  e -> e + e | e * e | n   (+ = 2, * = 3, n = 4)
   with  e + e @left(1),  e * e @left(2). *)

Definition cell_view (r : result) (s t : nat) : option (list cact * list cact * bool) :=
  match cell_at r s t with
  | Some row => Some (c_raw row, c_res row, c_conflict row)
  | None => None
  end.

Example calc_resolved :
  r_ok r_calc = true /\
  r_conflicts r_calc = false /\
  (* the state after "e + e": core { e -> e . + e, e -> e + e ., e -> e . * e } *)
  find_state_by_core [(1, 1); (1, 3); (2, 1)] r_calc = Some 5 /\
  (* lookahead * : the shift (of e -> e . * e, listed once per item) is kept *)
  cell_view r_calc 5 3 = Some ([CReduce 1; CShift 4 [2; 2; 2]], [CShift 4 [2; 2; 2]], false) /\
  (* lookahead + : reduce (left grouping) *)
  cell_view r_calc 5 2 = Some ([CShift 3 [1; 1; 1]; CReduce 1], [CReduce 1], false) /\
  (* after "e * e": reduce on both *)
  find_state_by_core [(1, 1); (2, 1); (2, 3)] r_calc = Some 6 /\
  cell_view r_calc 6 2 = Some ([CShift 3 [1; 1; 1]; CReduce 2], [CReduce 2], false) /\
  cell_view r_calc 6 3 = Some ([CShift 4 [2; 2; 2]; CReduce 2], [CReduce 2], false).
Proof. vm_compute. repeat split. Qed.

Example calc_noprec_conflict :
  r_ok r_calc_noprec = true /\
  r_conflicts r_calc_noprec = true /\
  cell_view r_calc_noprec 5 3 =
    Some ([CReduce 1; CShift 4 [2; 2; 2]], [CReduce 1; CShift 4 [2; 2; 2]], true) /\
  (* exactly the four conflicting cells of docs/markdown/parser_conflicts.md *)
  map (fun row => (c_state row, c_term row)) (filter c_conflict (r_cells r_calc_noprec))
    = [(5, 2); (5, 3); (6, 2); (6, 3)].
Proof. vm_compute. repeat split. Qed.

(* @right at equal level (known finding D5):  e -> e ^ e @right(1) | n.
   The state after "e ^ e" has two items e -> e . ^ e (lookaheads EOF and ^),
   so the shift lists production 1 twice and the reduce wins. *)
Definition g_pow : grammar := [ mkp 0 [NT 1]; mkp 1 [NT 1; T 2; NT 1]; mkp 1 [T 3] ].
Definition pow_prec (p : nat) : nat := match p with 1 => 1 | _ => 0 end.
Definition pow_right (p : nat) : bool := match p with 1 => true | _ => false end.

Example pow_right_reduces :
  let r := lalr_ref g_pow pow_prec pow_right in
  r_ok r = true /\ r_conflicts r = false /\
  find_state_by_core [(1, 1); (1, 3)] r = Some 4 /\
  cell_view r 4 2 = Some ([CShift 3 [1; 1]; CReduce 1], [CReduce 1], false).
Proof. vm_compute. repeat split. Qed.

(* the FIRST defect does not exist in the reference: for g_d1 the state after
   Z reduces q -> Z on lookahead A (terminal 4) as well as on E (terminal 2) *)
Example d1_reference_has_reduce_on_A :
  let r := lalr_ref g_d1 no_prec all_left in
  r_ok r = true /\ r_conflicts r = false /\
  find_state_by_core [(2, 1)] r = Some 3 /\
  cell_view r 3 4 = Some ([CReduce 2], [CReduce 2], false) /\
  cell_view r 3 2 = Some ([CReduce 2], [CReduce 2], false).
Proof. vm_compute. repeat split. Qed.

Print Assumptions closure_ref_closed.
Print Assumptions closure_ref_sound.
Print Assumptions closure_ref_iff.
Print Assumptions closure_ref_first_spec.
Print Assumptions goto_ref_kernel.
Print Assumptions goto_ref_kernel_items.
Print Assumptions merge_preserves_core.
Print Assumptions merge_union.
Print Assumptions calc_resolved.
Print Assumptions calc_noprec_conflict.
Print Assumptions pow_right_reduces.
Print Assumptions d1_reference_has_reduce_on_A.
