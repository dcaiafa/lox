(* C17 for the model of lox's semantic analysis (Gen/Analyze.v):
   A1 analyze_sound_for_wf, A2' analyze_accepts_iff (well_formed_weak =
   well_formed minus the shape of parser rule names), and the fuel of the macro
   expansion never runs out.  A2 refutations and A4 examples:
   AnalyzeExamples.v; A3 (blame): AnalyzeBlame.v.

   CreateNames recurses over the declaration TREE (a rejected mode hides its
   body); [run_spec] describes a run by the FLAT list of the declarations it
   covers.  Check and GenerateGrammar are flat traversals, characterised
   pointwise. *)
From Coq Require Import List String ZArith Bool Lia.
From Lox Require Import Base.ListFacts Gen.Analyze.
Import ListNotations.

Lemma cn_decl_mode id n body st :
  cn_decl (DMode id n body) st =
  let '(st1, d1) := cn_own (DMode id n body) st in
  match d1 with [] => cn_decls body st1 | _ => (st1, d1) end.
Proof. reflexivity. Qed.

Lemma cn_decl_other d st :
  (match d with DMode _ _ _ => False | _ => True end) ->
  cn_decl d st = cn_own d st.
Proof.
  destruct d; intros H; try contradiction; unfold cn_decl;
  match goal with |- (let '(_, _) := ?x in _) = _ => destruct x; reflexivity end.
Qed.

Lemma decl_ind' (P : decl -> Prop) :
  (forall id n e a, P (DToken id n e a)) ->
  (forall id e a, P (DFrag id e a)) ->
  (forall id n e, P (DMacro id n e)) ->
  (forall id ns, P (DExternal id ns)) ->
  (forall id n body, Forall P body -> P (DMode id n body)) ->
  (forall id b n pr, P (DRule id b n pr)) ->
  forall d, P d.
Proof.
  intros HT HF HM HE HMo HR. fix IH 1.
  intros [id n e a|id e a|id n e|id ns|id n body|id b n pr];
    [apply HT|apply HF|apply HM|apply HE| |apply HR].
  apply HMo. revert body. fix IHb 1. intros [|d r]; constructor; [apply IH | apply IHb].
Qed.

Definition seq2 (f g : nstate -> nstate * list diag) (st : nstate) : nstate * list diag :=
  let '(st1, d1) := f st in let '(st2, d2) := g st1 in (st2, d1 ++ d2).

Lemma cn_decls_cons d r st : cn_decls (d :: r) st = seq2 (cn_decl d) (cn_decls r) st.
Proof. reflexivity. Qed.

Fixpoint uniq_from (seen l : list string) : bool :=
  match l with
  | [] => true
  | x :: r => negb (mem_str x seen) && uniq_from (seen ++ [x]) r
  end.

Lemma mem_str_app x l1 l2 : mem_str x (l1 ++ l2) = mem_str x l1 || mem_str x l2.
Proof. unfold mem_str. apply existsb_app. Qed.

Lemma mem_str_In x l : mem_str x l = true <-> In x l.
Proof.
  unfold mem_str. rewrite existsb_exists. split.
  - intros [y [Hy He]]. apply String.eqb_eq in He. subst. assumption.
  - intros H. exists x. split; [assumption|apply String.eqb_refl].
Qed.

Lemma uniq_from_app seen l1 l2 :
  uniq_from seen (l1 ++ l2) = uniq_from seen l1 && uniq_from (seen ++ l1) l2.
Proof.
  revert seen. induction l1 as [|x l1 IH]; intros seen; simpl.
  - rewrite app_nil_r. reflexivity.
  - rewrite IH, <- app_assoc. simpl. rewrite andb_assoc. reflexivity.
Qed.

Lemma nodupb_snoc seen x : nodupb (seen ++ [x]) = nodupb seen && negb (mem_str x seen).
Proof.
  induction seen as [|a seen IH]; simpl.
  - reflexivity.
  - rewrite IH, mem_str_app. simpl. rewrite orb_false_r.
    assert (Hs : String.eqb a x = String.eqb x a) by apply String.eqb_sym.
    rewrite Hs. destruct (mem_str a seen), (String.eqb x a), (nodupb seen), (mem_str x seen); reflexivity.
Qed.

Lemma nodupb_uniq_from seen l : nodupb (seen ++ l) = nodupb seen && uniq_from seen l.
Proof.
  revert seen. induction l as [|x l IH]; intros seen; simpl.
  - rewrite app_nil_r, andb_true_r. reflexivity.
  - change (seen ++ x :: l) with (seen ++ [x] ++ l). rewrite app_assoc, IH, nodupb_snoc.
    rewrite andb_assoc. reflexivity.
Qed.

Lemma nodupb_NoDup l : nodupb l = true <-> NoDup l.
Proof.
  induction l as [|x l IH]; simpl.
  - split; [constructor|reflexivity].
  - rewrite andb_true_iff, negb_true_iff, IH. split.
    + intros [H1 H2]. constructor; [|assumption]. intros Hin. apply mem_str_In in Hin. congruence.
    + intros H. inversion H; subst. split; [|assumption].
      destruct (mem_str x l) eqn:E; [|reflexivity]. apply mem_str_In in E. contradiction.
Qed.

Lemma lookup_none n t : lookup n t = None <-> mem_str n (map fst t) = false.
Proof.
  induction t as [|[m e] t IH]; simpl.
  - tauto.
  - destruct (String.eqb n m); simpl; [split; discriminate|exact IH].
Qed.

Lemma lookup_In n t e : lookup n t = Some e -> In (n, e) t.
Proof.
  induction t as [|[m e'] t IH]; simpl; [discriminate|].
  destruct (String.eqb n m) eqn:E.
  - intros H. inversion H; subst. apply String.eqb_eq in E. subst. left; reflexivity.
  - intros H. right. apply IH. assumption.
Qed.

Definition name_ok (v : bool) (n : string) (st : nstate) : bool :=
  (negb v || token_name_ok n) && negb (mem_str n (map fst (n_names st))).

Definition names_of (st : nstate) : list string := map fst (n_names st).

Lemma cn_name_cases v n e id st :
  (name_ok v n st = true /\ cn_name v n e id st = (add_name n e st, [])) \/
  (name_ok v n st = false /\ exists k, cn_name v n e id st = (st, [(k, Some id)]) /\
     (((k = KBadName \/ k = KReservedName) /\ v = true /\ token_name_ok n = false) \/
      (k = KRedefined /\ In n (names_of st)))).
Proof.
  unfold name_ok, cn_name, token_name_ok, names_of.
  destruct (lookup n (n_names st)) as [x|] eqn:El.
  - assert (Hm : mem_str n (map fst (n_names st)) = true).
    { apply mem_str_In. apply lookup_In in El. exact (in_map fst _ _ El). }
    rewrite Hm, andb_false_r. right. split; [reflexivity|]. apply mem_str_In in Hm.
    destruct v; [destruct (validate_token_name n)|]; eexists; (split; [reflexivity|]); auto 6.
  - apply lookup_none in El. rewrite El, andb_true_r.
    destruct v; [destruct (validate_token_name n)|]; simpl.
    + left. auto.
    + right. split; [reflexivity|]. exists KBadName. auto 6.
    + right. split; [reflexivity|]. exists KReservedName. auto 6.
    + left. auto.
Qed.

(* st after CreateNames has accepted d itself (for a mode: without its body) *)
Definition ext1 (st : nstate) (d : decl) : nstate :=
  mkN (n_names st ++ own_names d) (n_aliases st ++ own_aliases d) (n_modes st ++ own_modes d)
      (n_start st || is_start d) (n_rules st || is_rule d).

Lemma names_add_name n e st :
  map fst (n_names (add_name n e st)) = map fst (n_names st) ++ [n].
Proof. simpl. rewrite map_app. reflexivity. Qed.

Lemma nstate_eta st : st = mkN (n_names st) (n_aliases st) (n_modes st) (n_start st) (n_rules st).
Proof. destruct st; reflexivity. Qed.

Definition blames (id : nat) (F : dkind -> Prop) (l : list diag) : Prop :=
  forall k oi, In (k, oi) l -> oi = Some id /\ F k.

Lemma blames_nil id F : blames id F [].
Proof. intros k oi []. Qed.

Lemma blames_one id (F : dkind -> Prop) k : F k -> blames id F [(k, Some id)].
Proof. intros H k' oi [X|[]]. inversion X; subst. auto. Qed.

Lemma blames_app id F l1 l2 : blames id F l1 -> blames id F l2 -> blames id F (l1 ++ l2).
Proof. intros H1 H2 k oi H. apply in_app_or in H. destruct H; auto. Qed.

Lemma blames_flat_map {A : Type} id F (f : A -> list diag) l :
  (forall x, In x l -> blames id F (f x)) -> blames id F (flat_map f l).
Proof.
  intros H k oi X. apply in_flat_map in X. destruct X as [x [Hx X]]. exact (H x Hx k oi X).
Qed.

Lemma blames_mono id (F G : dkind -> Prop) l :
  (forall k, F k -> G k) -> blames id F l -> blames id G l.
Proof. intros H B k oi Hin. destruct (B k oi Hin). auto. Qed.

Definition own_ok (st : nstate) (d : decl) : bool :=
  lexical_name_ok d && uniq_from (names_of st) (map fst (own_names d)) &&
  negb (is_start d && n_start st).

(* the defect of d that a diagnostic of kind k reports; N: the names registered
   before d, S: a @start rule came before it *)
Definition run_fault (N : list string) (S : bool) (d : decl) (k : dkind) : Prop :=
  match k with
  | KBadName | KReservedName => lexical_name_ok d = false
  | KRedefined => uniq_from N (map fst (own_names d)) = false
  | KStartRedefined => is_start d = true /\ S = true
  | _ => False
  end.

(* a rejecting cn_own may still have registered names (cn_ext goes on after a
   refused name; a second @start rule is registered): hence the bounds on st' *)
Inductive own_spec (st : nstate) (d : decl) : nstate * list diag -> Prop :=
| own_accept st' : own_ok st d = true -> st' = ext1 st d -> own_spec st d (st', [])
| own_reject st' dg :
    own_ok st d = false -> dg <> [] ->
    incl (names_of st') (names_of st ++ map fst (own_names d)) ->
    n_start st' = n_start st ->
    blames (decl_id d) (run_fault (names_of st) (n_start st) d) dg ->
    own_spec st d (st', dg).

Lemma uniq_from_mono l : forall seen seen',
  incl seen seen' -> uniq_from seen l = false -> uniq_from seen' l = false.
Proof.
  induction l as [|x l IH]; intros seen seen' Hi; simpl; [discriminate|].
  rewrite !andb_false_iff, !negb_false_iff. intros [H|H].
  - left. apply mem_str_In. apply Hi. apply mem_str_In. exact H.
  - right. apply (IH (seen ++ [x])); [|exact H]. apply incl_app; [apply incl_appl; exact Hi|apply incl_appr, incl_refl].
Qed.

Lemma run_fault_mono N N' S S' d k :
  incl N N' -> (S = true -> S' = true) -> run_fault N S d k -> run_fault N' S' d k.
Proof.
  intros HN HS. destruct k; simpl; auto.
  - apply uniq_from_mono. exact HN.
  - intros [H1 H2]. auto.
Qed.

Lemma own_ok_ext_cons st id n r :
  own_ok st (DExternal id (n :: r)) =
  name_ok true n st && own_ok (add_name n (EExternal id) st) (DExternal id r).
Proof.
  unfold own_ok, name_ok, names_of. rewrite names_add_name. simpl.
  destruct (token_name_ok n), (mem_str n (map fst (n_names st))); simpl; rewrite ?andb_false_r; reflexivity.
Qed.

Lemma own_fault_ext_cons st st1 id n r k :
  incl (names_of st1) (names_of st ++ [n]) ->
  run_fault (names_of st1) (n_start st1) (DExternal id r) k -> run_fault (names_of st) (n_start st) (DExternal id (n :: r)) k.
Proof.
  intros Hi. destruct k; simpl; try tauto; intros H.
  - rewrite (uniq_from_mono _ _ _ Hi H). apply andb_false_r.
  - rewrite H. apply andb_false_r.
  - rewrite H. apply andb_false_r.
  - destruct H. discriminate.
Qed.

Lemma cn_ext_spec id ns : forall st, own_spec st (DExternal id ns) (cn_ext id ns st).
Proof.
  induction ns as [|n r IH]; intros st.
  - apply own_accept; [reflexivity|].
    unfold ext1. simpl. rewrite !app_nil_r, !orb_false_r. apply nstate_eta.
  - simpl cn_ext.
    destruct (cn_name_cases true n (EExternal id) id st) as [[Hn E]|[Hn [k [E C]]]]; rewrite E.
    + assert (Hi : incl (names_of (add_name n (EExternal id) st)) (names_of st ++ [n])).
      { unfold names_of. rewrite names_add_name. apply incl_refl. }
      destruct (IH (add_name n (EExternal id) st)) as [s2 Ho ->|s2 d2 Ho Hd Hi2 Hs Hb]; simpl.
      * apply own_accept; [rewrite own_ok_ext_cons, Hn; exact Ho|].
        unfold ext1. simpl. rewrite <- app_assoc. reflexivity.
      * apply own_reject; [rewrite own_ok_ext_cons, Hn; exact Ho|exact Hd| |exact Hs|].
        -- unfold names_of in Hi2. rewrite names_add_name, <- app_assoc in Hi2. exact Hi2.
        -- exact (blames_mono _ _ _ _ (fun k => own_fault_ext_cons st _ id n r k Hi) Hb).
    + (* n is refused: the other names are still tried *)
      assert (F : run_fault (names_of st) (n_start st) (DExternal id (n :: r)) k).
      { destruct C as [[C1 [_ C2]]|[-> C2]].
        - destruct C1; subst k; simpl; rewrite C2; reflexivity.
        - simpl. apply mem_str_In in C2. rewrite C2. reflexivity. }
      assert (Hi : incl (names_of st) (names_of st ++ [n])) by (apply incl_appl, incl_refl).
      destruct (IH st) as [s2 Ho ->|s2 d2 Ho Hd Hi2 Hs Hb]; simpl;
        (apply own_reject; [rewrite own_ok_ext_cons, Hn; reflexivity|discriminate| | |]).
      * unfold ext1, names_of. simpl. rewrite map_app. apply incl_app; [apply incl_appl, incl_refl|].
        apply incl_appr, incl_tl, incl_refl.
      * apply orb_false_r.
      * apply blames_one. exact F.
      * intros x Hx. apply Hi2 in Hx. apply in_app_or in Hx. apply in_or_app.
        destruct Hx; [left|right; right]; assumption.
      * exact Hs.
      * apply (blames_app _ _ [_]); [apply blames_one; exact F|].
        exact (blames_mono _ _ _ _ (fun k => own_fault_ext_cons st _ id n r k Hi) Hb).
Qed.

(* st0 is st except for a rule, where it is set_rules st *)
Section Named.
Variables (v : bool) (n : string) (d : decl) (st0 st : nstate).
Hypothesis Hown : map fst (own_names d) = [n].
Hypothesis Hlex : lexical_name_ok d = negb v || token_name_ok n.
Hypothesis Hnames : names_of st0 = names_of st.
Hypothesis Hstart : n_start st0 = n_start st.

Lemma own_ok_named : own_ok st d = name_ok v n st0 && negb (is_start d && n_start st).
Proof.
  unfold own_ok, name_ok. rewrite Hown, Hlex. fold (names_of st0). rewrite Hnames. simpl.
  rewrite andb_true_r. reflexivity.
Qed.

Lemma name_refused k :
  name_ok v n st0 = false ->
  ((k = KBadName \/ k = KReservedName) /\ v = true /\ token_name_ok n = false) \/
  (k = KRedefined /\ In n (names_of st0)) ->
  own_spec st d (st0, [(k, Some (decl_id d))]).
Proof.
  intros Hn C. apply own_reject.
  - rewrite own_ok_named, Hn. reflexivity.
  - discriminate.
  - rewrite Hnames. apply incl_appl, incl_refl.
  - exact Hstart.
  - apply blames_one. destruct C as [[C1 [-> C2]]|[-> C2]].
    + simpl in Hlex. rewrite C2 in Hlex. destruct C1; subst k; exact Hlex.
    + simpl. rewrite Hown, <- Hnames. simpl. apply mem_str_In in C2. rewrite C2. reflexivity.
Qed.
End Named.

Lemma cn_own_spec d st : own_spec st d (cn_own d st).
Proof.
  destruct d as [id n e a|id e a|id n e|id ns|id n body|id b n pr]; simpl cn_own.
  - destruct (cn_name_cases true n (EToken id) id st) as [[Hn E]|[Hn [k [E C]]]]; rewrite E.
    + apply own_accept.
      * rewrite (own_ok_named true n _ st st) by reflexivity. rewrite Hn. reflexivity.
      * unfold ext1. simpl. rewrite !orb_false_r, app_nil_r.
        destruct (simple_literal e); simpl; rewrite ?app_nil_r; reflexivity.
    + exact (name_refused true n (DToken id n e a) st st eq_refl eq_refl eq_refl eq_refl k Hn C).
  - apply own_accept; [reflexivity|].
    unfold ext1. simpl. rewrite !app_nil_r, !orb_false_r. apply nstate_eta.
  - destruct (cn_name_cases true n (EMacro id e) id st) as [[Hn E]|[Hn [k [E C]]]]; rewrite E.
    + apply own_accept.
      * rewrite (own_ok_named true n _ st st) by reflexivity. rewrite Hn. reflexivity.
      * unfold ext1. simpl. rewrite !orb_false_r, !app_nil_r. reflexivity.
    + exact (name_refused true n (DMacro id n e) st st eq_refl eq_refl eq_refl eq_refl k Hn C).
  - apply cn_ext_spec.
  - destruct (cn_name_cases false n (EMode id) id st) as [[Hn E]|[Hn [k [E C]]]]; rewrite E.
    + apply own_accept.
      * rewrite (own_ok_named false n _ st st) by reflexivity. rewrite Hn. reflexivity.
      * unfold ext1. simpl. rewrite !orb_false_r, !app_nil_r. reflexivity.
    + exact (name_refused false n (DMode id n body) st st eq_refl eq_refl eq_refl eq_refl k Hn C).
  - (* registered after set_rules; @start only if none was seen *)
    pose proof (own_ok_named false n (DRule id b n pr) (set_rules st) st eq_refl eq_refl eq_refl) as Ho.
    destruct (cn_name_cases false n (ERule id) id (set_rules st)) as [[Hn E]|[Hn [k [E C]]]];
      rewrite E.
    + rewrite Hn in Ho. simpl in Ho. simpl. destruct b; [destruct (n_start st) eqn:Es|]; simpl in Ho.
      * apply own_reject; [exact Ho|discriminate| |reflexivity|].
        -- unfold names_of. rewrite names_add_name. apply incl_refl.
        -- apply blames_one. simpl. auto.
      * apply own_accept; [exact Ho|].
        unfold ext1, set_start, add_name. simpl. rewrite Es, !app_nil_r, !orb_true_r. reflexivity.
      * apply own_accept; [exact Ho|].
        unfold ext1, add_name. simpl. rewrite !app_nil_r, orb_false_r, orb_true_r. reflexivity.
    + exact (name_refused false n (DRule id b n pr) (set_rules st) st eq_refl eq_refl eq_refl eq_refl
               k Hn C).
Qed.

Definition starts_ok (b : bool) (ds : list decl) : bool :=
  Nat.b2n b + List.length (filter is_start ds) <=? 1.

Lemma fold_ext ds : forall st,
  fold_left ext1 ds st =
  mkN (n_names st ++ flat_map own_names ds) (n_aliases st ++ flat_map own_aliases ds)
      (n_modes st ++ flat_map own_modes ds)
      (n_start st || existsb is_start ds) (n_rules st || existsb is_rule ds).
Proof.
  induction ds as [|d r IH]; intros st; simpl.
  - rewrite !app_nil_r, !orb_false_r. apply nstate_eta.
  - rewrite IH. unfold ext1. simpl. rewrite <- !app_assoc, <- !orb_assoc. reflexivity.
Qed.

Definition lnames (ds : list decl) : list string := map fst (flat_map own_names ds).

Lemma lnames_app l1 l2 : lnames (l1 ++ l2) = lnames l1 ++ lnames l2.
Proof. unfold lnames. rewrite flat_map_app, map_app. reflexivity. Qed.

(* holds of a run over L whether it logs or not; the first two parts are what
   run_res_seq needs to carry the third across a sequence *)
Definition run_res (st st' : nstate) (dg : list diag) (L : list decl) : Prop :=
  incl (names_of st') (names_of st ++ lnames L) /\
  (n_start st' = true -> n_start st = true \/ existsb is_start L = true) /\
  forall k oi, In (k, oi) dg ->
    exists pre d post, L = pre ++ d :: post /\ oi = Some (decl_id d) /\
      run_fault (names_of st ++ lnames pre) (n_start st || existsb is_start pre) d k.

Lemma run_res_app_r st st' dg L R : run_res st st' dg L -> run_res st st' dg (L ++ R).
Proof.
  intros [H1 [H2 H3]]. split; [|split].
  - rewrite lnames_app, app_assoc. apply incl_appl. exact H1.
  - intros X. destruct (H2 X) as [Y|Y]; [left; exact Y|right]. rewrite existsb_app, Y. reflexivity.
  - intros k oi Hin. destruct (H3 k oi Hin) as [pre [d [post [E1 [E2 E3]]]]].
    exists pre, d, (post ++ R). repeat split; try assumption.
    rewrite E1, <- app_assoc. reflexivity.
Qed.

Lemma run_res_seq st s1 s2 d1 d2 L1 L2 :
  run_res st s1 d1 L1 -> run_res s1 s2 d2 L2 -> run_res st s2 (d1 ++ d2) (L1 ++ L2).
Proof.
  intros F G. destruct (run_res_app_r _ _ _ _ L2 F) as [_ [_ F3]].
  destruct F as [F1 [F2 _]]. destruct G as [G1 [G2 G3]].
  assert (HN : forall L, incl (names_of s1 ++ lnames L) (names_of st ++ lnames (L1 ++ L))).
  { intros L. rewrite lnames_app, app_assoc.
    apply incl_app; [apply incl_appl; exact F1|apply incl_appr, incl_refl]. }
  assert (HS : forall L, n_start s1 || existsb is_start L = true ->
                         n_start st || existsb is_start (L1 ++ L) = true).
  { intros L X. rewrite existsb_app. apply orb_true_iff in X. destruct X as [X|X].
    - destruct (F2 X) as [Z|Z]; rewrite Z; [reflexivity|]. rewrite orb_true_r. reflexivity.
    - rewrite X. rewrite !orb_true_r. reflexivity. }
  split; [|split].
  - eapply incl_tran; [exact G1|apply HN].
  - intros X. apply orb_true_iff, HS, orb_true_iff, G2, X.
  - intros k oi Hin. apply in_app_or in Hin. destruct Hin as [Hin|Hin]; [exact (F3 k oi Hin)|].
    destruct (G3 k oi Hin) as [pre [d [post [E1 [E2 E3]]]]].
    exists (L1 ++ pre), d, post. repeat split; try assumption.
    + rewrite E1, <- app_assoc. reflexivity.
    + exact (run_fault_mono _ _ _ _ _ _ (HN pre) (HS pre) E3).
Qed.

Definition flat_ok (st : nstate) (L : list decl) : bool :=
  forallb lexical_name_ok L && uniq_from (names_of st) (lnames L) && starts_ok (n_start st) L.

Lemma starts_ok_app b L1 L2 :
  starts_ok b (L1 ++ L2) = starts_ok b L1 && starts_ok (b || existsb is_start L1) L2.
Proof.
  unfold starts_ok. rewrite (existsb_filter is_start), filter_app, app_length.
  destruct b, (List.length (filter is_start L1)) as [|[|c]]; reflexivity.
Qed.

Lemma flat_ok_app st L1 L2 :
  flat_ok st (L1 ++ L2) = flat_ok st L1 && flat_ok (fold_left ext1 L1 st) L2.
Proof.
  unfold flat_ok, names_of. rewrite fold_ext. simpl.
  rewrite forallb_app, lnames_app, uniq_from_app, starts_ok_app, map_app.
  fold (lnames L1).
  destruct (forallb lexical_name_ok L1), (forallb lexical_name_ok L2),
    (uniq_from (map fst (n_names st)) (lnames L1)), (starts_ok (n_start st) L1); simpl;
    rewrite ?andb_false_r; reflexivity.
Qed.

Definition run_spec (st : nstate) (L : list decl) (r : nstate * list diag) : Prop :=
  run_res st (fst r) (snd r) L /\
  if flat_ok st L then r = (fold_left ext1 L st, []) else snd r <> [].

Lemma run_res_accept st L : run_res st (fold_left ext1 L st) [] L.
Proof.
  unfold run_res, names_of, lnames. rewrite fold_ext. simpl. rewrite map_app. split; [apply incl_refl|].
  split; [apply orb_true_iff|intros k oi []].
Qed.

Lemma run_nil st : run_spec st [] (st, []).
Proof.
  split; [exact (run_res_accept st [])|]. unfold flat_ok, starts_ok. simpl.
  destruct (n_start st); reflexivity.
Qed.

Lemma run_seq f g st L1 L2 :
  run_spec st L1 (f st) -> (forall s1, run_spec s1 L2 (g s1)) ->
  run_spec st (L1 ++ L2) (seq2 f g st).
Proof.
  intros [F1 F2] G. unfold seq2. destruct (f st) as [s1 d1]. destruct (G s1) as [G1 G2].
  destruct (g s1) as [s2 d2]. simpl in *. split; [exact (run_res_seq _ _ _ _ _ _ _ F1 G1)|].
  rewrite flat_ok_app. destruct (flat_ok st L1); simpl.
  - inversion F2; subst. destruct (flat_ok _ L2).
    + inversion G2; subst. rewrite fold_left_app. reflexivity.
    + exact G2.
  - intros E. apply app_eq_nil in E. destruct E. contradiction.
Qed.

Lemma run_guard (r : nstate * list diag) g st L1 L2 :
  run_spec st L1 r -> (forall s1, run_spec s1 L2 (g s1)) ->
  run_spec st (L1 ++ L2) (let '(s1, d1) := r in match d1 with [] => g s1 | _ => (s1, d1) end).
Proof.
  intros F G. destruct r as [s1 [|x d1]].
  - pose proof (run_seq (fun _ => (s1, [])) g st L1 L2 F G) as H. unfold seq2 in H.
    destruct (g s1). exact H.
  - destruct F as [F1 F2]. split; [apply run_res_app_r; exact F1|].
    rewrite flat_ok_app. destruct (flat_ok st L1); [discriminate F2|discriminate].
Qed.

Lemma flat_ok_one st d : flat_ok st [d] = own_ok st d.
Proof.
  unfold flat_ok, own_ok, starts_ok, lnames. simpl. rewrite app_nil_r, andb_true_r.
  destruct (is_start d), (n_start st); reflexivity.
Qed.

Lemma run_own d st : run_spec st [d] (cn_own d st).
Proof.
  unfold run_spec. rewrite flat_ok_one.
  destruct (cn_own_spec d st) as [s Ho ->|s dg Ho Hd Hi Hs Hb]; rewrite Ho; simpl.
  - split; [exact (run_res_accept st [d])|reflexivity].
  - split; [|exact Hd]. unfold run_res, lnames. simpl. rewrite app_nil_r. split; [exact Hi|].
    split; [left; congruence|]. intros k oi Hin. destruct (Hb k oi Hin) as [X1 X2].
    exists [], d, []. repeat split; auto.
    apply (run_fault_mono (names_of st) _ (n_start st)); [apply incl_appl, incl_refl| |exact X2].
    intros X. rewrite X. reflexivity.
Qed.

Lemma run_list ds :
  Forall (fun d => forall st, run_spec st (flat_decl d) (cn_decl d st)) ds ->
  forall st, run_spec st (flat_map flat_decl ds) (cn_decls ds st).
Proof.
  induction 1 as [|d r Hd _ IH]; intros st; [apply run_nil|].
  rewrite cn_decls_cons. exact (run_seq _ _ st _ _ (Hd st) IH).
Qed.

Lemma run_decl d : forall st, run_spec st (flat_decl d) (cn_decl d st).
Proof.
  induction d as [id n e a|id e a|id n e|id ns|id n body IHb|id b n pr] using decl_ind';
    intros st; try (rewrite cn_decl_other by exact I; apply run_own).
  rewrite cn_decl_mode.
  exact (run_guard _ _ st [DMode id n body] _ (run_own _ st) (run_list body IHb)).
Qed.

Lemma run_pass_names s : run_spec nstate0 (all_decls s) (pass_names s).
Proof. apply run_list, Forall_forall. intros d _. apply run_decl. Qed.

Lemma pass_names_char s st' :
  pass_names s = (st', []) <->
  wf_lexical_names s = true /\ wf_unique s = true /\ (count_start s <=? 1) = true /\
  st' = canon s.
Proof.
  assert (E : flat_ok nstate0 (all_decls s) =
              wf_lexical_names s && wf_unique s && (count_start s <=? 1)).
  { pose proof (nodupb_uniq_from [] (lnames (all_decls s))) as H. simpl in H.
    unfold flat_ok, wf_unique, canon. simpl. fold (lnames (all_decls s)). rewrite H. reflexivity. }
  assert (C : fold_left ext1 (all_decls s) nstate0 = canon s) by (rewrite fold_ext; reflexivity).
  destruct (run_pass_names s) as [_ R]. rewrite E, C in R. rewrite <- !and_assoc, <- !andb_true_iff.
  destruct (wf_lexical_names s && wf_unique s && (count_start s <=? 1)).
  - rewrite R. split; [intros X; inversion X; auto|intros [_ ->]; reflexivity].
  - split; [intros X; rewrite X in R; contradiction R; reflexivity|intros [X _]; discriminate].
Qed.

Lemma ck_range_ok id it : ck_range id it = [] <-> (fst it <=? snd it)%Z = true.
Proof.
  unfold ck_range. rewrite Z.ltb_antisym.
  destruct (fst it <=? snd it)%Z; simpl; split; intros; try discriminate; reflexivity.
Qed.

Lemma ck_atom_ok st id a :
  ck_atom st id a = [] <-> atom_ref_ok st a && atom_lit_ok a && atom_ranges_ok a = true.
Proof.
  destruct a as [cps|n|c|alts]; simpl.
  - destruct cps; simpl; split; intros; try discriminate; reflexivity.
  - destruct (lookup n (n_names st)) as [[]|]; simpl; split; intros; try discriminate; reflexivity.
  - apply flat_map_forallb. apply ck_range_ok.
  - tauto.
Qed.

Lemma ck_action_ok st id a :
  ck_action st id a = [] <-> action_ref_ok st a && action_mode_ok st a = true.
Proof.
  destruct a as [|m| |t]; simpl; try tauto.
  - destruct (mem_str m (n_modes st)); simpl; split; intros; try discriminate; reflexivity.
  - destruct (lookup t (n_names st)) as [[]|]; simpl; split; intros; try discriminate; reflexivity.
Qed.

Definition pterm_ok (st : nstate) (t : pterm) : bool :=
  pterm_ref_ok st t && pterm_alias_ok st t && pterm_lit_ok t && pterm_lists_ok t.

Lemma ck_pterm_ok st id t : ck_pterm st id t = [] <-> pterm_ok st t = true.
Proof.
  unfold pterm_ok. induction t as [n|lit| |k c IH|e IHe sp IHsp opt]; simpl.
  - destruct (lookup n (n_names st)) as [[]|]; simpl; split; intros; try discriminate; reflexivity.
  - destruct (String.eqb lit ""); simpl; [split; intros; discriminate|].
    destruct (count_str lit (n_aliases st)) as [|[|c]]; simpl; split; intros; try discriminate; reflexivity.
  - tauto.
  - exact IH.
  - rewrite !app_nil_iff, IHe, IHsp.
    assert (S : (if negb (pterm_simple e) then [(KListEntryNotSimple, Some id)]
                 else if negb (pterm_simple sp) then [(KListSepNotSimple, Some id)] else []) = []
                <-> pterm_simple e && pterm_simple sp = true).
    { destruct (pterm_simple e), (pterm_simple sp); simpl; split; intros; try discriminate; reflexivity. }
    rewrite S, !andb_true_iff. tauto.
Qed.

Lemma acyclic_atoms_nil tbl fuel stk l :
  flat_map (expand_atom tbl fuel stk) l = [] <-> acyclic_atoms tbl fuel stk l = true.
Proof.
  unfold acyclic_atoms. destruct (flat_map (expand_atom tbl fuel stk) l); split; intros; try discriminate; reflexivity.
Qed.

(* the cycle walk of the Check pass is the head of the full expansion *)
Lemma first_some_hd {A B : Type} (f : A -> option B) (g : A -> list B) (l : list A) :
  (forall a, f a = hd_error (g a)) -> first_some f l = hd_error (flat_map g l).
Proof.
  intros H. induction l as [|a r IH]; simpl; [reflexivity|].
  rewrite H. destruct (g a); simpl; [exact IH|reflexivity].
Qed.

Lemma cyc_atom_hd tbl : forall fuel stk a,
  cyc_atom tbl fuel stk a = hd_error (expand_atom tbl fuel stk a).
Proof.
  induction fuel as [|f IH]; intros stk a; destruct a as [cps|n|c|alts]; simpl; try reflexivity;
    destruct (lookup n tbl) as [[id|mid body|id|id|id]|]; try reflexivity;
    destruct (mem_str n stk); try reflexivity.
  apply first_some_hd. intros a. apply IH.
Qed.

Lemma macro_cycle_diag_hd tbl n e :
  macro_cycle_diag tbl n e =
  match flat_map (expand_atom tbl (List.length tbl) [n]) (lexpr_atoms e) with
  | [] => [] | x :: _ => [x] end.
Proof.
  unfold macro_cycle_diag. rewrite (first_some_hd _ _ _ (cyc_atom_hd tbl (List.length tbl) [n])).
  destruct (flat_map _ _); reflexivity.
Qed.

Lemma macro_cycle_diag_nil tbl n e :
  macro_cycle_diag tbl n e = [] <->
  acyclic_atoms tbl (List.length tbl) [n] (lexpr_atoms e) = true.
Proof.
  rewrite macro_cycle_diag_hd, <- acyclic_atoms_nil.
  destruct (flat_map _ _); split; intros; try discriminate; reflexivity.
Qed.

Lemma macro_cycle_diag_In tbl n e x :
  In x (macro_cycle_diag tbl n e) ->
  In x (flat_map (expand_atom tbl (List.length tbl) [n]) (lexpr_atoms e)).
Proof.
  rewrite macro_cycle_diag_hd. destruct (flat_map _ _); simpl; [tauto|].
  intros [H|[]]. left. exact H.
Qed.

Definition decl_check_ok (st : nstate) (d : decl) : bool :=
  decl_refs_ok st d && decl_aliases_ok st d && decl_modes_ok st d &&
  decl_literals_ok d && forallb atom_ranges_ok (decl_atoms d) && decl_lists_ok d &&
  macro_acyclic (n_names st) d.

Lemma lexpr_part_ok st id e :
  ck_lexpr st id e = [] <->
  forallb (atom_ref_ok st) (lexpr_atoms e) && forallb atom_lit_ok (lexpr_atoms e) &&
  forallb atom_ranges_ok (lexpr_atoms e) = true.
Proof.
  unfold ck_lexpr. rewrite (flat_map_forallb _ _ _ (ck_atom_ok st id)), !forallb_andb. tauto.
Qed.

Lemma lexer_part_ok st id e acts :
  ck_lexpr st id e ++ flat_map (ck_action st id) acts = [] <->
  (forallb (atom_ref_ok st) (lexpr_atoms e) && forallb (action_ref_ok st) acts) &&
  forallb (action_mode_ok st) acts && forallb atom_lit_ok (lexpr_atoms e) &&
  forallb atom_ranges_ok (lexpr_atoms e) = true.
Proof.
  rewrite app_nil_iff, lexpr_part_ok.
  rewrite (flat_map_forallb _ _ _ (ck_action_ok st id)), !forallb_andb, !andb_true_iff. tauto.
Qed.

Lemma ck_decl_ok st d : ck_decl st false d = [] <-> decl_check_ok st d = true.
Proof.
  unfold decl_check_ok, decl_literals_ok.
  destruct d as [id n e a|id e a|id n e|id ns|id n body|id b n pr]; simpl; try tauto.
  1-2: unfold decl_atoms; simpl; rewrite !andb_true_r, lexer_part_ok, !andb_true_iff; tauto.
  - unfold decl_atoms. simpl. rewrite !andb_true_r. rewrite app_nil_iff. split.
    + intros [H1 H2]. rewrite H1 in H2. simpl in H2.
      apply lexpr_part_ok in H1. apply macro_cycle_diag_nil in H2.
      rewrite !andb_true_iff in *. tauto.
    + intros H. rewrite !andb_true_iff in H. destruct H as [[[H1 H2] H3] H4].
      assert (X : ck_lexpr st id e = []).
      { apply lexpr_part_ok. rewrite H1, H2, H3. reflexivity. }
      split; [exact X|]. rewrite X. simpl. apply macro_cycle_diag_nil. exact H4.
  - unfold decl_atoms. simpl. rewrite !andb_true_r.
    rewrite (flat_map_forallb _ (forallb (pterm_ok st))).
    + unfold pterm_ok. rewrite !forallb2_andb, !andb_true_iff. tauto.
    + intros x. apply flat_map_forallb. apply ck_pterm_ok.
Qed.

Lemma ck_decls_nil st err ds :
  ck_decls st err ds = [] <-> forall d, In d ds -> ck_decl st err d = [].
Proof.
  revert err. induction ds as [|d r IH]; intros err; simpl.
  - split; [intros _ x []|reflexivity].
  - rewrite app_nil_iff. split.
    + intros [H1 H2]. rewrite H1 in H2. simpl in H2. rewrite orb_false_r in H2.
      intros x [X|X]; [subst; exact H1|]. apply (proj1 (IH err) H2). exact X.
    + intros H. assert (H1 := H d (or_introl eq_refl)). split; [exact H1|].
      rewrite H1. simpl. rewrite orb_false_r. apply IH. intros x X. apply H. right. exact X.
Qed.

Lemma pass_check_ok st s :
  pass_check st s = [] <-> forallb (decl_check_ok st) (all_decls s) = true.
Proof.
  unfold pass_check. rewrite ck_decls_nil, forallb_forall.
  split; intros H x Hx; apply ck_decl_ok, H, Hx.
Qed.

Lemma token_actions_ok id acts :
  token_actions id acts = [] <->
  forallb (fun a => negb (is_discard a) && negb (is_emit a)) acts = true.
Proof.
  induction acts as [|a r IH]; simpl; [tauto|].
  destruct a; simpl; try exact IH; split; intros; discriminate.
Qed.

Lemma frag_actions_ok id acts : forall hd he,
  frag_actions id hd he acts = [] <->
  Nat.b2n hd + Nat.b2n he + List.length (filter is_discard acts) +
  List.length (filter is_emit acts) <= 1.
Proof.
  induction acts as [|a r IH]; intros hd he; simpl.
  - destruct hd, he; simpl; split; intros H; try discriminate; try reflexivity; try lia.
  - destruct a; simpl.
    + destruct hd; simpl.
      * split; intros H; [discriminate|lia].
      * rewrite IH. simpl. lia.
    + apply IH.
    + apply IH.
    + destruct he; simpl.
      * split; intros H; [discriminate|lia].
      * rewrite IH. simpl. lia.
Qed.

Definition decl_gen_ok (tbl : names) (d : decl) : bool :=
  rule_acyclic tbl d && decl_token_actions_ok d && decl_frag_actions_ok d.

Lemma frag_part_ok id e acts :
  frag_actions id false false acts = [] <-> decl_frag_actions_ok (DFrag id e acts) = true.
Proof.
  rewrite frag_actions_ok. simpl. rewrite !andb_true_iff, !Nat.leb_le. lia.
Qed.

Lemma gen_decl_ok st d : gen_decl st d = [] <-> decl_gen_ok (n_names st) d = true.
Proof.
  unfold decl_gen_ok. destruct d as [id n e a|id e a|id n e|id ns|id n body|id b n pr];
    try (simpl; tauto); unfold gen_decl, expand_lexpr;
    rewrite app_nil_iff, acyclic_atoms_nil, !andb_true_iff.
  - rewrite token_actions_ok. simpl. tauto.
  - rewrite (frag_part_ok id e a). simpl. tauto.
Qed.

(* a diagnostic in the list means the clause that characterises its emptiness fails *)
Lemma In_not_ok {A : Type} (l : list A) (b : bool) x : In x l -> (l = [] <-> b = true) -> b = false.
Proof.
  intros Hin H. destruct b; [|reflexivity]. rewrite (proj2 H eq_refl) in Hin. contradiction.
Qed.

Lemma pass_gen_ok st s :
  pass_gen st s = [] <->
  forallb (decl_gen_ok (n_names st)) (all_decls s) = true /\
  n_rules st && negb (n_start st) = false.
Proof.
  unfold pass_gen. rewrite <- (flat_map_forallb _ _ _ (gen_decl_ok st)).
  destruct (flat_map (gen_decl st) (all_decls s)).
  - destruct (n_rules st && negb (n_start st)); split; intros H; try discriminate; auto.
    destruct H; discriminate.
  - split; intros H; [discriminate|destruct H; discriminate].
Qed.

Lemma check_split st l :
  forallb (decl_check_ok st) l =
  forallb (decl_refs_ok st) l && forallb (decl_aliases_ok st) l &&
  forallb (decl_modes_ok st) l && forallb decl_literals_ok l &&
  forallb (fun d => forallb atom_ranges_ok (decl_atoms d)) l && forallb decl_lists_ok l &&
  forallb (macro_acyclic (n_names st)) l.
Proof. unfold decl_check_ok. rewrite !forallb_andb. reflexivity. Qed.

Lemma gen_split tbl l :
  forallb (decl_gen_ok tbl) l =
  forallb (rule_acyclic tbl) l && forallb decl_token_actions_ok l && forallb decl_frag_actions_ok l.
Proof. unfold decl_gen_ok. rewrite !forallb_andb. reflexivity. Qed.

Lemma start_char s :
  wf_start s = true <->
  (count_start s <=? 1) = true /\ n_rules (canon s) && negb (n_start (canon s)) = false.
Proof.
  unfold wf_start.
  change (n_rules (canon s)) with (existsb is_rule (all_decls s)).
  change (n_start (canon s)) with (existsb is_start (all_decls s)).
  rewrite (existsb_filter is_start). fold (count_start s).
  destruct (count_start s <=? 1), (existsb is_rule (all_decls s)), (1 <=? count_start s); simpl;
    split; intros H; try discriminate; try reflexivity; auto; destruct H; discriminate.
Qed.

Lemma In_macro_decl s n mid body :
  In (n, EMacro mid body) (n_names (canon s)) -> In (DMacro mid n body) (all_decls s).
Proof.
  intros H. unfold canon in H. simpl in H.
  apply in_flat_map in H. destruct H as [d [Hd Hin]].
  destruct d as [id m e a|id e a|id m e|id ns|id m body'|id b m pr]; simpl in Hin;
    try contradiction; try (destruct Hin as [X|[]]; discriminate X).
  - destruct Hin as [X|[]]. inversion X; subst. exact Hd.
  - apply in_map_iff in Hin. destruct Hin as [x [X _]]. discriminate.
Qed.

Lemma acyclic_all_reachable s : wf_macros_acyclic s = true -> wf_reachable_acyclic s = true.
Proof.
  unfold wf_macros_acyclic, wf_reachable_acyclic. rewrite !forallb_forall. intros H d Hd.
  assert (X : forall e, acyclic_atoms (n_names (canon s)) (expand_fuel (n_names (canon s))) []
                          (lexpr_atoms e) = true).
  { intros e. apply acyclic_atoms_nil. apply flat_map_nil_iff. intros a _.
    remember (n_names (canon s)) as tbl eqn:Etbl.
    destruct a as [cps|n|c|alts]; try reflexivity. unfold expand_fuel. simpl.
    destruct (lookup n tbl) as [[id|mid body|id|id|id]|] eqn:El; try reflexivity.
    rewrite Etbl in El. apply lookup_In, In_macro_decl in El. apply H in El. unfold macro_acyclic in El.
    apply acyclic_atoms_nil in El. exact El. }
  destruct d; simpl; auto.
Qed.

Lemma weak_char s :
  well_formed_weak s = true <->
  (wf_lexical_names s = true /\ wf_unique s = true /\ (count_start s <=? 1) = true) /\
  forallb (decl_check_ok (canon s)) (all_decls s) = true /\
  forallb (decl_gen_ok (n_names (canon s))) (all_decls s) = true /\
  n_rules (canon s) && negb (n_start (canon s)) = false.
Proof.
  rewrite check_split, gen_split. unfold well_formed_weak. rewrite !andb_true_iff, start_char.
  (* both sides are now conjunctions of the same clauses, except for
     wf_reachable_acyclic (from rule_acyclic in gen_split), which is no clause
     of well_formed_weak and follows from wf_macros_acyclic by R *)
  pose proof (acyclic_all_reachable s) as R.
  unfold wf_refs, wf_aliases, wf_modes, wf_literals, wf_lists, wf_ranges, wf_macros_acyclic,
    wf_reachable_acyclic, wf_token_actions, wf_frag_actions in *. tauto.
Qed.

(* A2' : lox accepts exactly the specifications that satisfy every clause of
   the property but the shape of parser rule names *)
Theorem analyze_accepts_iff : forall s, analyze s = [] <-> well_formed_weak s = true.
Proof.
  intros s. rewrite weak_char. unfold analyze. destruct (pass_names s) as [st d1] eqn:E. split.
  - intros H. destruct d1 as [|x d1]; [|discriminate].
    apply pass_names_char in E. destruct E as [E1 [E2 [E3 E4]]]. subst st.
    destruct (pass_check (canon s) s) eqn:E5; [|discriminate].
    apply pass_check_ok in E5. apply pass_gen_ok in H. tauto.
  - intros [[E1 [E2 E3]] [H1 H2]].
    assert (E' : pass_names s = (canon s, [])) by (apply pass_names_char; tauto).
    rewrite E' in E. inversion E; subst.
    apply pass_check_ok in H1. rewrite H1. apply pass_gen_ok. exact H2.
Qed.

Lemma well_formed_split s :
  well_formed s = well_formed_weak s && wf_rule_names s.
Proof.
  unfold well_formed, well_formed_weak.
  destruct (wf_unique s), (wf_lexical_names s), (wf_rule_names s); simpl;
    rewrite ?andb_true_r, ?andb_false_r; reflexivity.
Qed.

Corollary analyze_rejects_iff_modulo_rule_names : forall s,
  wf_rule_names s = true -> (analyze s = [] <-> well_formed s = true).
Proof.
  intros s H. rewrite analyze_accepts_iff, well_formed_split, H, andb_true_r. tauto.
Qed.

Theorem analyze_sound_for_wf : forall s, well_formed s = true -> analyze s = [].
Proof.
  intros s H. apply analyze_accepts_iff.
  rewrite well_formed_split, andb_true_iff in H. apply H.
Qed.

Print Assumptions analyze_accepts_iff.
Print Assumptions analyze_sound_for_wf.

Lemma wf_unique_NoDup s :
  wf_unique s = true <-> NoDup (map fst (flat_map own_names (all_decls s))).
Proof. unfold wf_unique. simpl. apply nodupb_NoDup. Qed.

(* The stack of [expand_atom] is a duplicate-free list of names of the table,
   and each descent trades one unit of fuel for one more name on it, so the
   fuel cannot run out.  Both entry points satisfy it: the empty stack with
   expand_fuel tbl = S |tbl|, and [n] with |tbl| in macro_cycle_diag. *)
Definition stk_ok (tbl : names) (fuel : nat) (stk : list string) : Prop :=
  NoDup stk /\ incl stk (map fst tbl) /\ List.length tbl < fuel + List.length stk.

Lemma stk_ok_0 tbl stk : ~ stk_ok tbl 0 stk.
Proof.
  intros [Hnd [Hin Hlen]]. apply NoDup_incl_length in Hin; [|exact Hnd].
  rewrite map_length in Hin. simpl in Hlen. lia.
Qed.

Lemma stk_ok_push tbl f stk n e :
  stk_ok tbl (S f) stk -> lookup n tbl = Some e -> mem_str n stk = false ->
  stk_ok tbl f (n :: stk).
Proof.
  intros [Hnd [Hin Hlen]] El Em. split; [|split].
  - constructor; [|exact Hnd]. intros X. apply mem_str_In in X. congruence.
  - intros x [X|X]; [|apply Hin; exact X]. subst x. apply lookup_In in El.
    exact (in_map fst _ _ El).
  - simpl. lia.
Qed.

Lemma stk_ok_nil tbl : stk_ok tbl (expand_fuel tbl) [].
Proof.
  split; [constructor|]. split; [intros x []|]. unfold expand_fuel. simpl. lia.
Qed.

Lemma stk_ok_one tbl n : In n (map fst tbl) -> stk_ok tbl (List.length tbl) [n].
Proof.
  intros Hn. split; [constructor; [intros []|constructor]|]. split; [|simpl; lia].
  intros x [X|[]]. subst x. exact Hn.
Qed.

Lemma expand_more_fuel tbl : forall fuel stk a extra,
  stk_ok tbl fuel stk ->
  expand_atom tbl (fuel + extra) stk a = expand_atom tbl fuel stk a.
Proof.
  induction fuel as [|f IH]; intros stk a extra Hok.
  - destruct (stk_ok_0 _ _ Hok).
  - destruct a as [cps|n|c|alts]; try reflexivity. simpl.
    destruct (lookup n tbl) as [[id|mid body|id|id|id]|] eqn:El; try reflexivity.
    destruct (mem_str n stk) eqn:Em; [reflexivity|].
    apply flat_map_ext. intros a. apply IH. exact (stk_ok_push _ _ _ _ _ Hok El Em).
Qed.

Theorem expand_fuel_enough tbl a extra :
  expand_atom tbl (expand_fuel tbl + extra) [] a = expand_atom tbl (expand_fuel tbl) [] a.
Proof. apply expand_more_fuel, stk_ok_nil. Qed.

(* the same for the full acyclicity clause of [well_formed] *)
Theorem macro_fuel_enough tbl n a extra :
  In n (map fst tbl) ->
  expand_atom tbl (List.length tbl + extra) [n] a = expand_atom tbl (List.length tbl) [n] a.
Proof. intros Hn. apply expand_more_fuel, stk_ok_one, Hn. Qed.
Print Assumptions expand_fuel_enough.
