(* Executable model of how lox desugars the cardinality sugar of parser rules
   (internal/ast/parser_term.go: normalize / generate), plus the documented
   meaning of the sugar (docs/markdown/parser_reference.md) as a relation on
   token strings.

   What lox does (one unit):
   - CreateNames numbers S' = rule 0 and the user rules 1..n in declaration order.
   - Normalize visits rules, productions and terms in order.  A sugared term asks
     for a helper rule BY NAME ("x?", "x*", "x*!", "x+", "x+!", "@list(x,s)",
     "@list(x,s)?", x and s the names of the child symbols).  If the name is
     already registered the existing rule is reused.  Otherwise the helper is
     appended to the unit's statements and gets the next rule number AT ONCE
     (CreateNames), and only then its own productions are normalized: the "x*"
     helper asks for "x+", "x*!" for "x+!", "@list(x,s)?" for "@list(x,s)".
     So "x*" is numbered before the "x+" it creates.
   - GenerateGrammar numbers productions in statement order: production 0 is
     S' -> start, then the user productions in declaration order, then the two
     productions of every helper, helpers in creation order.
   The harness (sugar.go) compares lox's dump with normalize on every run:
   rule numbers, production numbers, right-hand sides and reported kinds.
   Not modelled:
   - several .lox files: a helper is appended to the unit that first asks for it,
     so its productions are numbered after that unit's user productions and
     before the next unit's, while its rule number is still the next free one.
   - "ERROR" is a reserved name, so "@error*" and a token's "X*" never share a
     helper name; @list rejects @error arguments (wf_sgrammarb does too).
   The reference manual writes x* as  x* = x+? ; x+? = x+ | @empty  (a third
   helper); lox builds  x* = x+ | @empty  directly.  Same language. *)
From Coq Require Import List Arith Bool.
From Lox Require Import Parse.Grammar.
Import ListNotations.

(* The sugared grammar.  There is no KPlusF: on_parser_card
   (internal/parser/parser.go) offers ?, *, *! and +; "x+!" exists only as the
   helper that "x*!" asks for. *)
Inductive scard := KOpt | KStar | KStarF | KPlus.

Inductive sterm :=
| STok (t : nat)                          (* terminal number; tokens start at 2 *)
| SRule (r : nat)                         (* nonterminal number: user rule k (0-based) is k+1 *)
| SErr                                    (* @error = terminal 1 *)
| SCard (k : scard) (c : sterm)           (* c? c* c*! c+ ; c is STok/SRule/SErr *)
| SList (elem sep : sterm) (opt : bool).  (* @list(elem,sep) / @list(elem,sep)? ; STok/SRule *)

Definition srule := list (list sterm).

Record sgrammar := {
  sg_rules : list srule;   (* user rules in declaration order; rule i is nonterminal i+1 *)
  sg_start : nat           (* nonterminal number of the @start rule *)
}.

Inductive helper_kind := HOpt | HStar | HStarF | HPlus | HPlusF | HList | HListOpt.

(* The code of the rule kind lox reports for the helper (codegen.RuleGenerated on
   its name): zero_or_more 2, zero_or_more_f 3, one_or_more 4, one_or_more_f 5,
   zero_or_one 6, list 7.  "@list(x,s)?" ends in '?' and is reported zero_or_one. *)
Definition hk_code (k : helper_kind) : nat :=
  match k with
  | HStar => 2 | HStarF => 3 | HPlus => 4 | HPlusF => 5
  | HOpt => 6 | HListOpt => 6 | HList => 7
  end.

(* A helper's identity: lox's name of it. *)
Definition hkey := (helper_kind * sym * option sym)%type.

Definition hk_eqb (a b : helper_kind) : bool :=
  match a, b with
  | HOpt, HOpt | HStar, HStar | HStarF, HStarF | HPlus, HPlus
  | HPlusF, HPlusF | HList, HList | HListOpt, HListOpt => true
  | _, _ => false
  end.

Definition osym_eqb (a b : option sym) : bool :=
  match a, b with
  | Some x, Some y => sym_eqb x y
  | None, None => true
  | _, _ => false
  end.

Definition hkey_eqb (a b : hkey) : bool :=
  match a, b with
  | (k1, c1, s1), (k2, c2, s2) => hk_eqb k1 k2 && sym_eqb c1 c2 && osym_eqb s1 s2
  end.

(* the symbol of a simple term *)
Definition sym_of (x : sterm) : sym :=
  match x with
  | STok t => T t
  | SRule r => NT r
  | SErr => T error_t
  | _ => T error_t     (* not simple: excluded by wf_sgrammarb *)
  end.

Definition card_kind (k : scard) : helper_kind :=
  match k with KOpt => HOpt | KStar => HStar | KStarF => HStarF | KPlus => HPlus end.

(* the helper a term asks for *)
Definition key_of (x : sterm) : option hkey :=
  match x with
  | SCard k c => Some (card_kind k, sym_of c, None)
  | SList e s false => Some (HList, sym_of e, Some (sym_of s))
  | SList e s true => Some (HListOpt, sym_of e, Some (sym_of s))
  | _ => None
  end.

(* the helper a new helper asks for while its own productions are normalized *)
Definition sub_key (k : hkey) : option hkey :=
  match k with
  | (HStar, c, _) => Some (HPlus, c, None)
  | (HStarF, c, _) => Some (HPlusF, c, None)
  | (HListOpt, c, s) => Some (HList, c, s)
  | _ => None
  end.

Fixpoint find_idx (k : hkey) (tbl : list hkey) : option nat :=
  match tbl with
  | [] => None
  | k' :: r => if hkey_eqb k k' then Some 0 else option_map S (find_idx k r)
  end.

Definition mem_key (k : hkey) (tbl : list hkey) : bool :=
  match find_idx k tbl with Some _ => true | None => false end.

Definition add_key (tbl : list hkey) (k : hkey) : list hkey :=
  if mem_key k tbl then tbl else tbl ++ [k].

(* generate(name, ...): look the name up; a new helper is appended first, then
   what its own productions ask for *)
Definition request (tbl : list hkey) (k : hkey) : list hkey :=
  if mem_key k tbl then tbl
  else
    let tbl' := tbl ++ [k] in
    match sub_key k with
    | Some k' => add_key tbl' k'
    | None => tbl'
    end.

Definition request_term (tbl : list hkey) (x : sterm) : list hkey :=
  match key_of x with
  | Some k => request tbl k
  | None => tbl
  end.

(* all terms in the order the Normalize pass visits them *)
Definition all_terms (g : sgrammar) : list sterm := concat (concat (sg_rules g)).

(* the helpers in creation order: helper j is nonterminal (number of user rules)+1+j *)
Definition collect (g : sgrammar) : list hkey := fold_left request_term (all_terms g) [].

Definition helper_nt (n : nat) (tbl : list hkey) (k : hkey) : sym :=
  match find_idx k tbl with
  | Some j => NT (n + 1 + j)
  | None => NT 0     (* never for the table of collect *)
  end.

(* the symbol a term has after normalization *)
Definition tsym (n : nat) (tbl : list hkey) (x : sterm) : sym :=
  match key_of x with
  | Some k => helper_nt n tbl k
  | None => sym_of x
  end.

Definition user_prods_of (n : nat) (tbl : list hkey) (i : nat) (r : srule) : list prod :=
  map (fun p => {| lhs := i + 1; rhs := map (tsym n tbl) p |}) r.

Fixpoint user_prods (n : nat) (tbl : list hkey) (i : nat) (rs : list srule) : list prod :=
  match rs with
  | [] => []
  | r :: rs' => user_prods_of n tbl i r ++ user_prods n tbl (S i) rs'
  end.

(* the two productions of helper number j (nonterminal h = n+1+j) *)
Definition helper_rhs1 (n : nat) (tbl : list hkey) (h : nat) (k : hkey) : list sym :=
  match k with
  | (HOpt, c, _) => [c]
  | (HStar, c, _) => [helper_nt n tbl (HPlus, c, None)]
  | (HStarF, c, _) => [helper_nt n tbl (HPlusF, c, None)]
  | (HPlus, c, _) => [NT h; c]
  | (HPlusF, c, _) => [NT h; c]
  | (HList, c, Some s) => [NT h; s; c]
  | (HList, c, None) => [NT h; c; c]      (* no such key *)
  | (HListOpt, c, s) => [helper_nt n tbl (HList, c, s)]
  end.

Definition helper_rhs2 (k : hkey) : list sym :=
  match k with
  | (HOpt, _, _) | (HStar, _, _) | (HStarF, _, _) | (HListOpt, _, _) => []
  | (HPlus, c, _) | (HPlusF, c, _) | (HList, c, _) => [c]
  end.

Fixpoint helper_prods (n : nat) (tbl : list hkey) (j : nat) (l : list hkey) : list prod :=
  match l with
  | [] => []
  | k :: l' =>
    {| lhs := n + 1 + j; rhs := helper_rhs1 n tbl (n + 1 + j) k |} ::
    {| lhs := n + 1 + j; rhs := helper_rhs2 k |} ::
    helper_prods n tbl (S j) l'
  end.

Definition build (g : sgrammar) (tbl : list hkey) : grammar :=
  let n := length (sg_rules g) in
  {| lhs := 0; rhs := [NT (sg_start g)] |} ::
  user_prods n tbl 0 (sg_rules g) ++ helper_prods n tbl 0 tbl.

Definition key_kind (k : hkey) : helper_kind := fst (fst k).

Definition normalize (g : sgrammar) : grammar * list (nat * helper_kind) :=
  let tbl := collect g in
  let n := length (sg_rules g) in
  (build g tbl, combine (seq (n + 1) (length tbl)) (map key_kind tbl)).

(* well-formedness (what lox's Check pass accepts) *)

Definition simpleb (n : nat) (x : sterm) : bool :=
  match x with
  | STok _ => true
  | SRule r => (1 <=? r) && (r <=? n)
  | SErr => true
  | _ => false
  end.

(* "@list entry/separator param must be a simple token or rule": not @error *)
Definition list_argb (n : nat) (x : sterm) : bool :=
  match x with
  | SErr => false
  | _ => simpleb n x
  end.

Definition wf_termb (n : nat) (x : sterm) : bool :=
  match x with
  | SCard _ c => simpleb n c
  | SList e s _ => list_argb n e && list_argb n s
  | _ => simpleb n x
  end.

Definition wf_sgrammarb (g : sgrammar) : bool :=
  let n := length (sg_rules g) in
  (1 <=? sg_start g) && (sg_start g <=? n) &&
  forallb (fun r => forallb (fun p => forallb (wf_termb n) p) r) (sg_rules g).

Definition wf_sgrammar (g : sgrammar) : Prop := wf_sgrammarb g = true.

Section Meaning.
Variable g : sgrammar.

(* sderives x u : term x matches the token string u
   sprod p u    : the terms of production p match u, in order
   srep c n u   : u is n concatenated matches of c
   sreplist e s n u : u is  e (s e)^n *)
Inductive sderives : sterm -> list token -> Prop :=
| sd_tok t i : sderives (STok t) [(t, i)]
| sd_err i : sderives SErr [(error_t, i)]
| sd_rule r rl p u :
    nth_error (sg_rules g) r = Some rl -> In p rl -> sprod p u -> sderives (SRule (S r)) u
| sd_opt_none c : sderives (SCard KOpt c) []
| sd_opt_some c u : sderives c u -> sderives (SCard KOpt c) u
| sd_star c n u : srep c n u -> sderives (SCard KStar c) u
| sd_starf c n u : srep c n u -> sderives (SCard KStarF c) u
| sd_plus c n u : srep c (S n) u -> sderives (SCard KPlus c) u
| sd_list e s o n u : sreplist e s n u -> sderives (SList e s o) u
| sd_list_none e s : sderives (SList e s true) []
with sprod : list sterm -> list token -> Prop :=
| sp_nil : sprod [] []
| sp_cons x xs u v : sderives x u -> sprod xs v -> sprod (x :: xs) (u ++ v)
with srep : sterm -> nat -> list token -> Prop :=
| sr_zero c : srep c 0 []
| sr_more c n u v : srep c n u -> sderives c v -> srep c (S n) (u ++ v)
with sreplist : sterm -> sterm -> nat -> list token -> Prop :=
| sl_one e s u : sderives e u -> sreplist e s 0 u
| sl_more e s n u v w :
    sreplist e s n u -> sderives s v -> sderives e w -> sreplist e s (S n) (u ++ v ++ w).

Definition ssentence (w : list token) : Prop := sderives (SRule (sg_start g)) w.

End Meaning.

Scheme sderives_ind4 := Minimality for sderives Sort Prop
with sprod_ind4 := Minimality for sprod Sort Prop
with srep_ind4 := Minimality for srep Sort Prop
with sreplist_ind4 := Minimality for sreplist Sort Prop.
Combined Scheme sderives_mutind from sderives_ind4, sprod_ind4, srep_ind4, sreplist_ind4.

(* a flat rendering for the test harness.
   symbol: T t -> 2t, NT n -> 2n+1; a production is lhs :: symbols *)
Definition enc_sym (s : sym) : nat := match s with T t => 2 * t | NT n => 2 * n + 1 end.
Definition enc_prod (p : prod) : list nat := lhs p :: map enc_sym (rhs p).
Definition normalize_flat (g : sgrammar) : list (list nat) * list (nat * nat) :=
  let (gr, hs) := normalize g in
  (map enc_prod gr, map (fun x => (fst x, hk_code (snd x))) hs).
