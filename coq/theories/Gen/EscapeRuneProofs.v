(* C15: what the code point of a class item / the runes of a literal are, for
   the escapes and for plain characters.  Over Gen/EscapeRune.v. *)
From Coq Require Import List ZArith Lia.
From Lox Require Import Rang3.ClassModel Lex.Utf8Model Lex.Utf8Proofs Gen.EscapeModel Gen.EscapeProofs Gen.EscapeRune.
Import ListNotations.
Local Open Scope Z_scope.

Lemma to_rune_id : forall v, v <= 1114111 -> to_rune v = v.
Proof.
  intros v H. unfold to_rune. destruct (v <? 2147483648) eqn:E; [reflexivity|].
  apply Z.ltb_ge in E. lia.
Qed.

Lemma rune_item_denotes : forall tok v,
  unescape tok = UOk [(true, v)] -> scalar v -> class_char_rune tok = Some v.
Proof.
  intros tok v E [Hr Hs]. unfold class_char_rune, unescape_bytes. rewrite E.
  unfold out_bytes. cbn [flat_map fst snd].
  rewrite to_rune_id by lia.
  rewrite decode_encode by assumption. reflexivity.
Qed.

Lemma escape_hex_denotes : forall c ds, esc_kind_of c = KHex (length ds) true ->
  forallb is_hex ds = true -> scalar (hex_value ds) ->
  class_char_rune (92 :: c :: ds) = Some (hex_value ds).
Proof.
  intros c ds K Hh Hs. apply rune_item_denotes; [|exact Hs].
  unfold unescape. cbn [length]. rewrite loop_bs, K.
  rewrite hex_fold by exact Hh. reflexivity.
Qed.

Lemma escape_u_denotes : forall ds, length ds = 4%nat -> forallb is_hex ds = true ->
  0 <= hex_value ds <= 1114111 -> ~ (55296 <= hex_value ds <= 57343) ->
  class_char_rune (92 :: 117 :: ds) = Some (hex_value ds).
Proof.
  intros ds Hl Hh Hr Hs.
  apply escape_hex_denotes; [rewrite Hl; reflexivity|assumption|split; assumption].
Qed.

Lemma escape_U_denotes : forall ds, length ds = 8%nat -> forallb is_hex ds = true ->
  0 <= hex_value ds <= 1114111 -> ~ (55296 <= hex_value ds <= 57343) ->
  class_char_rune (92 :: 85 :: ds) = Some (hex_value ds).
Proof.
  intros ds Hl Hh Hr Hs.
  apply escape_hex_denotes; [rewrite Hl; reflexivity|assumption|split; assumption].
Qed.

Lemma escape_simple_denotes : class_char_rune [92; 110] = Some 10 /\ class_char_rune [92; 114] = Some 13 /\ class_char_rune [92; 116] = Some 9 /\ class_char_rune [92; 92] = Some 92 /\ class_char_rune [92; 45] = Some 45 /\ class_char_rune [92] = Some 92.
Proof. vm_compute. repeat split. Qed.

Lemma encode_rune_bytes : forall r, 0 <= r <= 1114111 -> ~ (55296 <= r <= 57343) -> r <> 92 ->
  forall b, In b (encode_rune r) -> b <> 92 /\ 0 <= b < 256.
Proof.
  intros r Hr Hs Hn b.
  assert (C : r <= 127 \/ 128 <= r <= 2047 \/ 2048 <= r <= 65535 \/ 65536 <= r)
    by lia.
  destruct C as [C|[C|[C|C]]].
  - rewrite encode_rune_1 by lia. intros [<-|[]]. lia.
  - rewrite encode_rune_2 by lia.
    intros [<-|[<-|[]]]; Z.div_mod_to_equations; lia.
  - rewrite encode_rune_3 by lia.
    intros [<-|[<-|[<-|[]]]]; Z.div_mod_to_equations; lia.
  - rewrite encode_rune_4 by lia.
    intros [<-|[<-|[<-|[<-|[]]]]]; Z.div_mod_to_equations; lia.
Qed.

Lemma out_bytes_plain : forall l,
  out_bytes (map (fun b => (false, b)) l) = map (fun b => b mod 256) l.
Proof.
  induction l as [|b l IH]; [reflexivity|].
  unfold out_bytes in *. cbn [map flat_map fst snd app]. rewrite IH. reflexivity.
Qed.

Lemma unescape_bytes_plain : forall l,
  (forall b, In b l -> b <> 92 /\ 0 <= b < 256) ->
  unescape_bytes l = Some l.
Proof.
  intros l H. unfold unescape_bytes.
  rewrite unescape_plain_identity by (intros b Hb; apply H; exact Hb).
  rewrite out_bytes_plain. f_equal.
  rewrite <- (map_id l) at 2. apply map_ext_in.
  intros b Hb. apply Z.mod_small. apply H; exact Hb.
Qed.

Lemma plain_char_denotes : forall r, 0 <= r <= 1114111 -> ~ (55296 <= r <= 57343) -> r <> 92 ->
  class_char_rune (encode_rune r) = Some r.
Proof.
  intros r Hr Hs Hn. unfold class_char_rune.
  rewrite unescape_bytes_plain by (apply encode_rune_bytes; assumption).
  rewrite <- (app_nil_r (encode_rune r)).
  rewrite decode_encode by assumption. reflexivity.
Qed.

Lemma literal_runes_plain : forall rs, Forall (fun r => (0 <= r <= 1114111 /\ ~ (55296 <= r <= 57343)) /\ r <> 92) rs ->
  literal_runes (encode_all rs) = Some rs.
Proof.
  intros rs H. unfold literal_runes.
  rewrite unescape_bytes_plain.
  - rewrite decode_all_encode_all.
    + rewrite map_map. cbn [fst]. rewrite map_id. reflexivity.
    + eapply Forall_impl; [|exact H]. intros a Ha. exact (proj1 Ha).
  - intros b Hb. unfold encode_all in Hb. apply in_flat_map in Hb.
    destruct Hb as (r & Hr & Hb). rewrite Forall_forall in H.
    destruct (H r Hr) as [[H1 H2] H3].
    eapply encode_rune_bytes; eassumption.
Qed.

(* the range / surrogate hypotheses of escape_u_denotes and escape_U_denotes are
   needed; \xff is a byte *)
Lemma escape_oddities : class_char_rune [92; 120; 102; 102] = Some 65533 /\ class_char_rune [92; 117; 100; 56; 48; 48] = Some 65533 /\ class_char_rune [92; 85; 48; 48; 49; 49; 48; 48; 48; 48] = Some 65533 /\ class_char_rune [92; 85; 70; 70; 70; 70; 70; 70; 70; 70] = Some 65533.
Proof. vm_compute. repeat split. Qed.

Print Assumptions escape_u_denotes.
Print Assumptions escape_U_denotes.
Print Assumptions plain_char_denotes.
Print Assumptions literal_runes_plain.
