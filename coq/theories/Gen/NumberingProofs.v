(* Theorems about the token numbering model (Numbering.v), property C19.
   Numbering.decl is a syntax of its own (only what adds terminals), not
   Analyze.decl; the side conditions of terminals_nodup are what
   Analyze.pass_names enforces, but no lemma connects the two models. *)
From Coq Require Import List ZArith String Lia ZifyBool.
From Lox Require Import Gen.Numbering.
Import ListNotations.
Local Open Scope string_scope.
Local Open Scope list_scope.

Lemma index_of_sound : forall ts n i,
  index_of ts n = Some i -> nth_error ts i = Some n /\ (i < List.length ts)%nat.
Proof.
  induction ts as [|x ts IH]; intros n i H; cbn [index_of] in H; [discriminate|].
  destruct (String.eqb x n) eqn:E.
  - apply String.eqb_eq in E. inversion H; subst. cbn. split; [reflexivity | lia].
  - destruct (index_of ts n) as [j|] eqn:Ej; cbn [option_map] in H; [|discriminate].
    inversion H; subst i. destruct (IH _ _ Ej) as [Hn Hl]. cbn [nth_error List.length].
    split; [exact Hn | lia].
Qed.

Lemma index_of_app_notin : forall A n B,
  ~ In n A -> index_of (A ++ n :: B) n = Some (List.length A).
Proof.
  induction A as [|x A IH]; intros n B Hnot; cbn [app index_of List.length].
  - rewrite String.eqb_refl. reflexivity.
  - destruct (String.eqb x n) eqn:E.
    + apply String.eqb_eq in E. exfalso. apply Hnot. left. exact E.
    + rewrite IH; [reflexivity|]. intros Hin. apply Hnot. right. exact Hin.
Qed.

Lemma index_of_none : forall ts n, ~ In n ts -> index_of ts n = None.
Proof.
  induction ts as [|x ts IH]; intros n Hnot; cbn [index_of]; [reflexivity|].
  destruct (String.eqb x n) eqn:E.
  - apply String.eqb_eq in E. exfalso. apply Hnot. left. exact E.
  - rewrite IH; [reflexivity|]. intros Hin. apply Hnot. right. exact Hin.
Qed.

Lemma index_of_app_nodup : forall A n B,
  NoDup (A ++ n :: B) -> index_of (A ++ n :: B) n = Some (List.length A).
Proof.
  intros A n B Hnd. apply index_of_app_notin. apply NoDup_remove_2 in Hnd.
  intros Hin. apply Hnd. apply in_or_app. left. exact Hin.
Qed.

Lemma index_of_nth : forall ts i n, NoDup ts ->
  nth_error ts i = Some n -> index_of ts n = Some i.
Proof.
  intros ts i n Hnd Hn. destruct (nth_error_split _ _ Hn) as [A [B [Hts Hlen]]].
  subst ts i. apply index_of_app_nodup. exact Hnd.
Qed.

Theorem eof_error_fixed : forall files,
  index_of (terminals files) "EOF" = Some 0%nat /\
  index_of (terminals files) "ERROR" = Some 1%nat /\
  token_to_string (terminals files) 0 = "EOF" /\
  token_to_string (terminals files) 1 = "ERROR".
Proof. intros files. unfold terminals. repeat split; reflexivity. Qed.

(* the side condition of numbering_dense, in terms of the specification: declared
   names are pairwise distinct (RegisterName) and not reserved (validateTokenName) *)
Lemma terminals_nodup : forall files,
  NoDup (spec_names files) -> ~ In "EOF" (spec_names files) -> ~ In "ERROR" (spec_names files) ->
  NoDup (terminals files).
Proof.
  intros files Hnd He Hr. unfold terminals. constructor.
  - intros [H|H]; [discriminate | exact (He H)].
  - constructor; assumption.
Qed.

Theorem numbering_dense : forall ts, NoDup ts ->
  (forall i n, nth_error ts i = Some n -> index_of ts n = Some i) /\
  (forall n i, index_of ts n = Some i -> nth_error ts i = Some n /\ (i < List.length ts)%nat) /\
  (forall n, In n ts <-> exists i, index_of ts n = Some i) /\
  (forall n m i, index_of ts n = Some i -> index_of ts m = Some i -> n = m).
Proof.
  intros ts Hnd. split; [|split; [|split]].
  - intros i n. apply index_of_nth. exact Hnd.
  - apply index_of_sound.
  - intros n. split.
    + intros Hin. destruct (In_nth_error _ _ Hin) as [i Hi]. exists i.
      apply index_of_nth; assumption.
    + intros [i Hi]. apply index_of_sound in Hi. destruct Hi as [Hi _].
      eapply nth_error_In. exact Hi.
  - intros n m i Hn Hm. apply index_of_sound in Hn. apply index_of_sound in Hm.
    destruct Hn as [Hn _]. destruct Hm as [Hm _]. congruence.
Qed.

Theorem numbering_dense_spec : forall files,
  NoDup (spec_names files) -> ~ In "EOF" (spec_names files) -> ~ In "ERROR" (spec_names files) ->
  let ts := terminals files in
  (forall i, (i < List.length ts)%nat -> index_of ts (nth i ts "") = Some i) /\
  (forall n, In n ts -> exists i, index_of ts n = Some i /\ (i < List.length ts)%nat /\ nth i ts "" = n).
Proof.
  intros files Hnd He Hr ts.
  pose proof (terminals_nodup _ Hnd He Hr) as Hts. fold ts in Hts.
  destruct (numbering_dense ts Hts) as [H1 [H2 [H3 _]]]. split.
  - intros i Hi. apply H1. apply nth_error_nth'. exact Hi.
  - intros n Hin. apply H3 in Hin. destruct Hin as [i Hi]. exists i.
    destruct (H2 _ _ Hi) as [Hn Hl]. split; [exact Hi|]. split; [exact Hl|].
    apply nth_error_nth. exact Hn.
Qed.

Theorem token_to_string_total : forall ts,
  (forall n i, index_of ts n = Some i -> token_to_string ts (Z.of_nat i) = n) /\
  (forall t, (t < 0 \/ Z.of_nat (List.length ts) <= t)%Z -> token_to_string ts t = "???").
Proof.
  intros ts. split.
  - intros n i Hi. apply index_of_sound in Hi. destruct Hi as [Hn _].
    unfold token_to_string. destruct (Z.of_nat i <? 0)%Z eqn:E; [lia|].
    rewrite Nat2Z.id, Hn. reflexivity.
  - intros t Ht. unfold token_to_string. destruct (t <? 0)%Z eqn:E; [reflexivity|].
    assert (Hnone : nth_error ts (Z.to_nat t) = None) by (apply nth_error_None; lia).
    rewrite Hnone. reflexivity.
Qed.

Lemma decls_names_app : forall a b, decls_names (a ++ b) = (decls_names a ++ decls_names b)%list.
Proof. intros a b. unfold decls_names. apply flat_map_app. Qed.

Lemma spec_names_app : forall a b, spec_names (a ++ b) = (spec_names a ++ spec_names b)%list.
Proof. intros a b. unfold spec_names. apply flat_map_app. Qed.

(* a name contributed by declaration d (directly, in an @external list, or
   anywhere inside a mode) gets 2 + the number of terminals declared before it *)
Theorem declaration_order : forall fpre dpre d dpost fpost npre n npost,
  decl_names d = (npre ++ [n] ++ npost)%list ->
  let files := (fpre ++ [dpre ++ [d] ++ dpost] ++ fpost)%list in
  NoDup (terminals files) ->
  index_of (terminals files) n =
    Some (2 + List.length (spec_names fpre) + List.length (decls_names dpre) + List.length npre)%nat.
Proof.
  intros fpre dpre d dpost fpost npre n npost Hd files Hnd.
  assert (Hsplit : exists B, terminals files =
            (("EOF" :: "ERROR" :: spec_names fpre ++ decls_names dpre ++ npre) ++ n :: B)%list).
  { exists (npost ++ decls_names dpost ++ spec_names fpost)%list.
    unfold files, terminals. rewrite !spec_names_app.
    cbn [spec_names flat_map]. rewrite app_nil_r. rewrite !decls_names_app.
    cbn [decls_names flat_map]. rewrite app_nil_r. rewrite Hd.
    cbn [app]. rewrite <- !app_assoc. cbn [app]. reflexivity. }
  destruct Hsplit as [B HB]. rewrite HB in *. rewrite (index_of_app_nodup _ _ _ Hnd).
  f_equal. cbn [List.length]. rewrite !app_length. lia.
Qed.

Corollary declaration_order_token : forall fpre dpre n dpost fpost,
  let files := (fpre ++ [dpre ++ [DTok n] ++ dpost] ++ fpost)%list in
  NoDup (terminals files) ->
  index_of (terminals files) n = Some (2 + List.length (spec_names fpre) + List.length (decls_names dpre))%nat.
Proof.
  intros fpre dpre n dpost fpost files Hnd.
  pose proof (declaration_order fpre dpre (DTok n) dpost fpost [] n [] eq_refl Hnd) as H.
  cbn [List.length] in H. rewrite Nat.add_0_r in H. exact H.
Qed.

Corollary declaration_order_in_mode : forall fpre dpre mpre n mpost dpost fpost,
  let files := (fpre ++ [dpre ++ [DMode (mpre ++ [DTok n] ++ mpost)] ++ dpost] ++ fpost)%list in
  NoDup (terminals files) ->
  index_of (terminals files) n =
    Some (2 + List.length (spec_names fpre) + List.length (decls_names dpre) + List.length (decls_names mpre))%nat.
Proof.
  intros fpre dpre mpre n mpost dpost fpost files Hnd.
  apply (declaration_order fpre dpre (DMode (mpre ++ [DTok n] ++ mpost)) dpost fpost
           (decls_names mpre) n (decls_names mpost)); [|exact Hnd].
  cbn [decl_names]. change (flat_map decl_names) with decls_names.
  rewrite !decls_names_app. cbn [decls_names flat_map decl_names]. rewrite app_nil_r. reflexivity.
Qed.

Corollary declaration_order_external : forall fpre dpre epre n epost dpost fpost,
  let files := (fpre ++ [dpre ++ [DExt (epre ++ [n] ++ epost)] ++ dpost] ++ fpost)%list in
  NoDup (terminals files) ->
  index_of (terminals files) n =
    Some (2 + List.length (spec_names fpre) + List.length (decls_names dpre) + List.length epre)%nat.
Proof.
  intros fpre dpre epre n epost dpost fpost files Hnd.
  apply (declaration_order fpre dpre (DExt (epre ++ [n] ++ epost)) dpost fpost epre n epost);
    [reflexivity | exact Hnd].
Qed.

(* consequently: of two names, the one declared first has the smaller number *)
Theorem declaration_order_monotone : forall ts A n B m C,
  ts = (A ++ n :: B ++ m :: C)%list -> NoDup ts ->
  exists i j, index_of ts n = Some i /\ index_of ts m = Some j /\ (i < j)%nat.
Proof.
  intros ts A n B m C Hts Hnd. subst ts.
  exists (List.length A), (List.length (A ++ n :: B)). split; [|split].
  - apply index_of_app_nodup. exact Hnd.
  - change (A ++ n :: B ++ m :: C)%list with (A ++ (n :: B) ++ m :: C)%list in *.
    rewrite app_assoc in *. apply index_of_app_nodup. exact Hnd.
  - rewrite app_length. cbn [List.length]. lia.
Qed.

Print Assumptions eof_error_fixed.
Print Assumptions numbering_dense.
Print Assumptions numbering_dense_spec.
Print Assumptions token_to_string_total.
Print Assumptions declaration_order.
Print Assumptions declaration_order_token.
Print Assumptions declaration_order_in_mode.
Print Assumptions declaration_order_external.
Print Assumptions declaration_order_monotone.
