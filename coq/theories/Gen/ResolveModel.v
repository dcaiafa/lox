(* Executable model of lox's conflict resolution
   (/repo/internal/parsergen/lr1/construct.go, resolveConflicts / the inner
   closure resolveConflict, and action.go).

   A cell is the list of actions of one (state, terminal) pair, in the order
   createActions added them.  [CShift target prods] : prods is Action.Prods,
   to which AddShift appends the production once PER ITEM of the state that
   shifts the terminal (so the same production may be listed several times). *)
From Coq Require Import List Arith Bool.
Import ListNotations.

Inductive cact :=
| CShift (target : nat) (prods : list nat)
| CReduce (p : nat)
| CAccept.

Section Resolve.
Variable prec : nat -> nat.          (* Prod.Precedence; 0 = no qualifier *)
Variable assoc_right : nat -> bool.  (* Prod.Associativity == Right *)
Variable rule_of : nat -> nat.       (* Prod.Rule *)

(* the loop "for i, prod := range shift.Prods" for i >= 1 *)
Definition all_same (r pr : nat) (ps : list nat) : bool :=
  forallb (fun p => (rule_of p =? r) && (prec p =? pr)) ps.

(* resolveConflict once shift = CShift tgt sp and reduce = CReduce p are identified.
   Go tests shiftPrec <= 0 || reducePrec <= 0 on int; levels are [nat] and the
   test is [=? 0] because on_parser_qualif (internal/parser/parser.go) accepts
   only positive levels, so Precedence is never negative. *)
Definition resolve_sr (tgt : nat) (sp : list nat) (p : nat) : option (list cact) :=
  match sp with
  | [] => None           (* shiftRule = nil, shiftPrec = 0 : returns false *)
  | q :: rest =>
      if negb (all_same (rule_of q) (prec q) rest) then None
      else if negb (rule_of q =? rule_of p) then None
      else if (prec q =? 0) || (prec p =? 0) then None
      else if prec q <? prec p then Some [CReduce p]              (* remove(shift) *)
      else if prec p <? prec q then Some [CShift tgt sp]          (* remove(reduce) *)
      else
        match rest with
        | [] => if (q =? p) && assoc_right q
                then Some [CShift tgt sp]                         (* remove(reduce) *)
                else Some [CReduce p]                             (* default: remove(shift) *)
        | _ :: _ => Some [CReduce p]                              (* len(shift.Prods) <> 1 *)
        end
  end.

(* None : resolveConflict returns false;  Some r : it removed one action, r remains *)
Definition resolve (cell : list cact) : option (list cact) :=
  match cell with
  | [CShift t sp; CReduce p] => resolve_sr t sp p
  | [CReduce p; CShift t sp] => resolve_sr t sp p
  | _ => None
  end.

Definition is_none {A} (o : option A) : bool :=
  match o with None => true | Some _ => false end.

(* the cell sets t.HasConflicts *)
Definition cell_conflict (cell : list cact) : bool :=
  (1 <? length cell) && is_none (resolve cell).

(* what resolveConflicts leaves in the cell *)
Definition resolved_cell (cell : list cact) : list cact :=
  if 1 <? length cell then
    match resolve cell with Some r => r | None => cell end
  else cell.

End Resolve.

(* Examples: productions 1 = e '+' e, 2 = e '*' e, 4 = e '^' e, all of rule 1 *)

Definition ex_prec (p : nat) : nat :=
  match p with 1 => 1 | 2 => 2 | 4 => 3 | _ => 0 end.
Definition ex_right (p : nat) : bool := match p with 4 => true | _ => false end.
Definition ex_rule (p : nat) : nat := match p with 0 => 0 | _ => 1 end.

(* after e + e, lookahead * : shift *)
Example resolve_ex_plus_mul :
  resolve ex_prec ex_right ex_rule [CReduce 1; CShift 7 [2; 2; 2]] = Some [CShift 7 [2; 2; 2]].
Proof. vm_compute. reflexivity. Qed.
(* after e * e, lookahead + : reduce *)
Example resolve_ex_mul_plus :
  resolve ex_prec ex_right ex_rule [CShift 6 [1; 1; 1]; CReduce 2] = Some [CReduce 2].
Proof. vm_compute. reflexivity. Qed.
(* after e + e, lookahead + : reduce (left) *)
Example resolve_ex_plus_plus :
  resolve ex_prec ex_right ex_rule [CShift 6 [1; 1; 1]; CReduce 1] = Some [CReduce 1].
Proof. vm_compute. reflexivity. Qed.
(* reduce/reduce and an unqualified production stay conflicts *)
Example resolve_ex_rr : cell_conflict ex_prec ex_right ex_rule [CReduce 1; CReduce 2] = true.
Proof. vm_compute. reflexivity. Qed.
Example resolve_ex_noprec : cell_conflict ex_prec ex_right ex_rule [CShift 3 [3]; CReduce 1] = true.
Proof. vm_compute. reflexivity. Qed.
