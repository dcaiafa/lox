(* C15: x-y pairing of class items (internal/parser/parser.go on_char_class,
   mirrored by ClassModel.pair_items / class_items).  A class body written as a
   sequence of items, each a single CLASS_CHAR or CLASS_CHAR '-' CLASS_CHAR,
   is read back as exactly those items — whatever the characters are, the
   escaped dash (a CLASS_CHAR whose rune is 45) included. *)
From Coq Require Import List ZArith Lia.
From Lox Require Import Rang3.RangeModel Rang3.ClassModel.
Import ListNotations.
Local Open Scope Z_scope.

Inductive citem := ISingle (c : Z) | IRange (a b : Z).

(* the tokens the ClassChar mode produces for an item: (false, r) = CLASS_CHAR
   with rune r, (true, 45) = CLASS_DASH *)
Definition render (it : citem) : list ctok :=
  match it with
  | ISingle c => [(false, c)]
  | IRange a b => [(false, a); (true, 45); (false, b)]
  end.

Definition denote (it : citem) : range :=
  match it with
  | ISingle c => (c, c)
  | IRange a b => (a, b)
  end.

Lemma pair_items_render : forall its fuel,
  (length (flat_map render its) < fuel)%nat ->
  pair_items fuel (flat_map render its) = map denote its.
Proof.
  induction its as [|it its IH]; intros fuel Hf.
  - destruct fuel; reflexivity.
  - destruct fuel as [|f]; [cbn in Hf; lia|].
    cbn [flat_map] in *. rewrite app_length in Hf.
    destruct it as [c|a b]; cbn [render app length map denote] in *.
    + (* single: the next token, if any, is a CLASS_CHAR *)
      rewrite <- (IH f) by lia. destruct its as [|[c'|a' b'] its']; reflexivity.
    + cbn [pair_items snd]. f_equal. apply IH. lia.
Qed.

Lemma pair_render : forall its, class_items (flat_map render its) = map denote its.
Proof. intros its. unfold class_items. apply pair_items_render. lia. Qed.

(* an unescaped dash with no character before it, or none after it, is a member;
   in "a - -" the first dash is the operator and the second its upper bound *)
Lemma pair_dash_edges : forall a,
  class_items [(false, a); (true, 45)] = [(a, a); (45, 45)] /\
  class_items [(true, 45); (false, a)] = [(45, 45); (a, a)] /\
  class_items [(false, a); (true, 45); (true, 45)] = [(a, 45)] /\
  class_items [(false, a); (false, 45); (false, a)] = [(a, a); (45, 45); (a, a)].
Proof. intros a. repeat split; reflexivity. Qed.

Print Assumptions pair_render.
