(* Executable mirror of internal/codegen/assign_actions.go (AssignActions,
   getActionMethods, getReduceTypeForGeneratedRule, matchMethod,
   getTermGoType, ruleFromMethod), of codegen.RuleGenerated, and of the value
   flow of the `_act` template of emit_parser.go (`_cast[T]`), as of commits
   156a4e1 / e7bf6de / 0c3cc7f (casts to the term's type; @error terms have
   the error type also inside generated rules).
   Definitions only (no proofs): this file is extracted to OCaml and run
   against the real tool.  Theorems are in BindingProofs.v, BindingVerdict.v
   and BindingComplete.v.

   Go types are abstract numbers; everything go/types decides is an `oracle`
   record given by the caller (the harness fills it with matrices computed by
   go/types on the package under test).

   Conventions
   - rules, productions: positions in `rules` / `prods` (= lr1 Rule.Index,
     Prod.Index).  A term is (true, terminal index) or (false, rule index);
     terminal 1 is ERROR.
   - methods: in the order ParserType.Method(i) enumerates them.  (Observed
     on the real tool: this is DECLARATION order, not name order - the
     "first method" of a rule in the return-conflict and no-such-rule
     diagnostics is the one declared first.)  m_id identifies the method in
     diagnostics and in the binding.
   - Go ranges over the map `methods` in random order at two places and over
     a set at a third; the SET of diagnostics does not depend on it, their
     order does.  Every BErr carries its diagnostics in canonical order:
     sorted by kind (constructor order of bdiag) and then by culprit number
     (sort_diags). *)
From Coq Require Import List String Arith Bool.
Import ListNotations.
Local Open Scope string_scope.
Local Open Scope nat_scope.
Local Open Scope list_scope.

Definition ty := nat.

Record oracle := {
  identical : ty -> ty -> bool;
  assignable : ty -> ty -> bool;    (* assignable v t: a value of type v is assignable to t *)
  slice_of : ty -> ty;              (* types.NewSlice *)
  is_interface : ty -> bool;
  implements : ty -> ty -> bool     (* implements d i: dynamic type d implements interface i *)
}.

(* codegen.generated, the constants RuleGenerated returns (codegen.go).
   Parse/Tables.rkind is the same enum as the parser run-time sees it. *)
Inductive rkind' :=
| NotGenerated | SPrime | ZeroOrMore | ZeroOrMoreF | OneOrMore | OneOrMoreF | ZeroOrOne | ListK.

Record brule := { br_name : string; br_kind : rkind'; br_prods : list nat }.
Record bprod := { bp_rule : nat; bp_terms : list (bool * nat) }.
Record meth := { m_id : nat; m_name : string; m_params : list ty; m_results : list ty }.

(* ------------------------------------------------------------------ *)
(* names *)

Definition has_prefix (p s : string) : bool := String.prefix p s.

Definition has_suffix (suf s : string) : bool :=
  let n := String.length s in
  let k := String.length suf in
  (k <=? n) && String.eqb (substring (n - k) k s) suf.

(* codegen.RuleGenerated: the tests in the order of the Go switch.  A name
   ending in "*!" does not end in "*", so it reaches the second test; same
   for "+!".  "@list(x,s)?" ends in "?" and is ZeroOrOne (the suffix test
   precedes the prefix test). *)
Definition rule_generated (name : string) : rkind' :=
  if String.eqb name "S'" then SPrime
  else if has_suffix "*" name then ZeroOrMore
  else if has_suffix "*!" name then ZeroOrMoreF
  else if has_suffix "+" name then OneOrMore
  else if has_suffix "+!" name then OneOrMoreF
  else if has_suffix "?" name then ZeroOrOne
  else if has_prefix "@list" name then ListK
  else NotGenerated.

(* ruleFromMethod; None is Go's "" (not an action).  "on_" and "on___x"
   give the empty rule name, which getActionMethods skips like "". *)
Definition rule_from_method (name : string) : option string :=
  if has_prefix "on_" name then
    let r := substring 3 (String.length name - 3) name in
    let r' := match index 0 "__" r with
              | Some i => substring 0 i r
              | None => r
              end in
    if String.eqb r' "" then None else Some r'
  else None.

(* "_onBounds" (OnBoundsMethodName) only sets EmitBounds; it does not start
   with "on_", so it is no action either way. *)
Definition is_on_bounds (name : string) : bool := String.eqb name "_onBounds".

(* ------------------------------------------------------------------ *)
(* results *)

Inductive bdiag :=
| DResultCount (m : nat)          (* "action method must return a single value" *)
| DReturnConflict (m : nat)       (* "action return type conflict" (m: the later method) *)
| DNoSuchRule (m : nat)           (* "no rule named" (m: first method of the name) *)
| DRuleMissingMethod (rule : nat) (* "rule missing action method" *)
| DNoMatch (prod : nat)           (* "production has no matching action method" *)
| DMultipleMatch (prod : nat)     (* "multiple action methods matching production" *)
| DUnassigned (m : nat).          (* "could not match action method to a production" *)

(* where the Go code would panic *)
Inductive psite :=
| PIdxProds        (* rule.Prods[0] / rule.Prods[1] / termCplus.Prods[1] out of range *)
| PIdxTerms        (* prod.Terms[0] out of range *)
| PNotRule         (* prod.Terms[0].( *lr1.Rule ) on a terminal *)
| PAssertNil       (* assert.True(typeCplus != nil) *)
| PAssertIdentical (* assert.True(gotypes.Identical(existing, typ)) *)
| PAssertReturn    (* assert.True(Identical(matches[0].Return, RuleGoTypes[prod.Rule])) *)
| PRecursion       (* unbounded recursion of getReduceTypeForGeneratedRule *)
| PBadIndex.       (* impossible when wf_input holds *)

Inductive result :=
| BOk (binding : list (nat * nat))    (* production -> method id, user productions only, in production order *)
      (rule_types : list (nat * ty))  (* rule -> Go type, in rule order *)
| BErr (diags : list bdiag)           (* canonical order *)
| BPanic (site : psite)
| BIllFormed                          (* the input is not a representation of an lr1.Grammar + method set *)
| BFuel.                              (* never: the fixed point needs at most |rules|+1 rounds *)

Definition diag_rank (d : bdiag) : nat :=
  match d with
  | DResultCount _ => 0 | DReturnConflict _ => 1 | DNoSuchRule _ => 2
  | DRuleMissingMethod _ => 3 | DNoMatch _ => 4 | DMultipleMatch _ => 5
  | DUnassigned _ => 6
  end.

Definition diag_culprit (d : bdiag) : nat :=
  match d with
  | DResultCount m | DReturnConflict m | DNoSuchRule m | DRuleMissingMethod m
  | DNoMatch m | DMultipleMatch m | DUnassigned m => m
  end.

Definition diag_leb (a b : bdiag) : bool :=
  (diag_rank a <? diag_rank b) ||
  ((diag_rank a =? diag_rank b) && (diag_culprit a <=? diag_culprit b)).

Fixpoint insert_diag (d : bdiag) (l : list bdiag) : list bdiag :=
  match l with
  | [] => [d]
  | x :: l' => if diag_leb d x then d :: l else x :: insert_diag d l'
  end.

Definition sort_diags (l : list bdiag) : list bdiag := fold_right insert_diag [] l.

(* ------------------------------------------------------------------ *)
(* small list helpers *)

Definition indexed {A : Type} (l : list A) : list (nat * A) :=
  combine (seq 0 (List.length l)) l.

Fixpoint list_nat_eqb (a b : list nat) : bool :=
  match a, b with
  | [], [] => true
  | x :: a', y :: b' => (x =? y) && list_nat_eqb a' b'
  | _, _ => false
  end.

Fixpoint nodup_natb (l : list nat) : bool :=
  match l with
  | [] => true
  | x :: l' => negb (existsb (Nat.eqb x) l') && nodup_natb l'
  end.

Fixpoint nodup_strb (l : list string) : bool :=
  match l with
  | [] => true
  | x :: l' => negb (existsb (String.eqb x) l') && nodup_strb l'
  end.

Definition rkind_eqb (a b : rkind') : bool :=
  match a, b with
  | NotGenerated, NotGenerated | SPrime, SPrime | ZeroOrMore, ZeroOrMore
  | ZeroOrMoreF, ZeroOrMoreF | OneOrMore, OneOrMore | OneOrMoreF, OneOrMoreF
  | ZeroOrOne, ZeroOrOne | ListK, ListK => true
  | _, _ => false
  end.

Definition is_sprime (k : rkind') : bool := rkind_eqb k SPrime.
Definition is_user (k : rkind') : bool := rkind_eqb k NotGenerated.

Definition kind_of (rules : list brule) (i : nat) : rkind' :=
  match nth_error rules i with
  | Some r => br_kind r
  | None => NotGenerated
  end.

Definition name_of (rules : list brule) (i : nat) : string :=
  match nth_error rules i with
  | Some r => br_name r
  | None => ""
  end.

(* ------------------------------------------------------------------ *)
(* representation invariants of (lr1.Grammar, method set); the harness input
   must satisfy them, otherwise assign_actions answers BIllFormed:
   - Prod.Rule and rule terms point into Rules;
   - rule.Prods is the list of the grammar's productions of that rule, in
     grammar order (lr1.Grammar.AddProd appends to both);
   - br_kind is RuleGenerated(name);
   - S' is never a term (it is created by NewGrammar, no name resolves to it);
   - rule names are unique (ast.Context.Lookup), method ids are unique. *)

Definition prods_of (prods : list bprod) (i : nat) : list nat :=
  map fst (filter (fun ip => bp_rule (snd ip) =? i) (indexed prods)).

Definition wf_term (rules : list brule) (t : bool * nat) : bool :=
  fst t || ((snd t <? List.length rules) && negb (is_sprime (kind_of rules (snd t)))).

Definition wf_prod (rules : list brule) (p : bprod) : bool :=
  (bp_rule p <? List.length rules) && forallb (wf_term rules) (bp_terms p).

Definition wf_rule (prods : list bprod) (ir : nat * brule) : bool :=
  list_nat_eqb (br_prods (snd ir)) (prods_of prods (fst ir)) &&
  rkind_eqb (br_kind (snd ir)) (rule_generated (br_name (snd ir))).

Definition wf_input (rules : list brule) (prods : list bprod) (ms : list meth) : bool :=
  forallb (wf_prod rules) prods &&
  forallb (wf_rule prods) (indexed rules) &&
  nodup_strb (map br_name rules) &&
  nodup_natb (map m_id ms).

(* ------------------------------------------------------------------ *)
(* getActionMethods *)

Definition rule_of (m : meth) : option string := rule_from_method (m_name m).

Definition is_action (m : meth) : bool :=
  match rule_of m with Some _ => true | None => false end.

Definition actions (ms : list meth) : list meth := filter is_action ms.

Definition bad_result_count (m : meth) : bool := negb (List.length (m_results m) =? 1).

Definition phase0_errs (ms : list meth) : list bdiag :=
  map (fun m => DResultCount (m_id m)) (filter bad_result_count (actions ms)).

Definition ret (m : meth) : ty := hd 0 (m_results m).

(* methods[r], in enumeration order *)
Definition in_group (r : string) (m : meth) : bool :=
  match rule_of m with
  | Some r' => String.eqb r' r
  | None => false
  end.

Definition group (acts : list meth) (r : string) : list meth := filter (in_group r) acts.

(* the keys of the map `methods` *)
Definition group_names (acts : list meth) : list string :=
  nodup string_dec
    (flat_map (fun m => match rule_of m with Some r => [r] | None => [] end) acts).

(* rules[name]: the map is filled in rule order, so the last rule of that
   name wins (names are unique under wf_input) *)
Fixpoint find_rule_from (i : nat) (rules : list brule) (name : string) : option nat :=
  match rules with
  | [] => None
  | r :: rest =>
    match find_rule_from (S i) rest name with
    | Some j => Some j
    | None => if String.eqb (br_name r) name then Some i else None
    end
  end.

Definition find_rule (rules : list brule) (name : string) : option nat :=
  find_rule_from 0 rules name.

(* ------------------------------------------------------------------ *)
(* Go types as they occur in RuleGoTypes.  INil is a nil gotypes.Type.
   types.NewSlice(nil) is a non-nil type: when the element rule has no type
   yet, `x+` and `x*` still receive one (observed on the real tool: for a rule
   x without methods, x and `x?` are reported as missing, `x+`/`x*` are not).
   ISl e is a slice whose element type is not a proper type. *)

Inductive ity := INil | IT (t : ty) | ISl (e : ity).

Definition islice (o : oracle) (e : ity) : ity :=
  match e with
  | IT t => IT (slice_of o t)
  | _ => ISl e
  end.

Fixpoint ity_identical (o : oracle) (a b : ity) : bool :=
  match a, b with
  | INil, INil => true
  | IT x, IT y => identical o x y
  | ISl x, ISl y => ity_identical o x y
  | _, _ => false
  end.

Definition ity_is_nil (t : ity) : bool := match t with INil => true | _ => false end.

Definition rtypes := list (nat * ity).

Fixpoint rt_get (rt : rtypes) (i : nat) : ity :=
  match rt with
  | [] => INil
  | (j, t) :: rest => if j =? i then t else rt_get rest i
  end.

(* getTermGoType on a terminal *)
Definition terminal_ty (tok err : ty) (i : nat) : ty := if i =? 1 then err else tok.

Section WithOracle.
Variable o : oracle.
Variables tok err : ty.
Variable rules : list brule.
Variable prods : list bprod.

(* first loop of AssignActions, one map entry *)
Definition phase1_group (acts : list meth) (r : string) : list bdiag * rtypes :=
  match group acts r with
  | [] => ([], [])
  | f :: others =>
    let confl :=
      map (fun m => DReturnConflict (m_id m))
          (filter (fun m => negb (identical o (ret m) (ret f))) others) in
    match find_rule rules r with
    | None => (confl ++ [DNoSuchRule (m_id f)], [])
    | Some i => (confl, [(i, IT (ret f))])
    end
  end.

Definition phase1_errs (acts : list meth) : list bdiag :=
  flat_map (fun r => fst (phase1_group acts r)) (group_names acts).

Definition phase1_types (acts : list meth) : rtypes :=
  flat_map (fun r => snd (phase1_group acts r)) (group_names acts).

(* getReduceTypeForGeneratedRule *)
Inductive rres := RP (s : psite) | RT (t : ity).

(* type of prod.Terms[0] in the generated-rule cases: a rule has its
   registered type, a terminal has getTermGoType(term): ErrorType for ERROR
   (terminal 1), TokenType otherwise.  (Before commit e7bf6de a terminal was
   always TokenType here, so `@error+` was registered as []Token while the
   template built a []Error.) *)
Definition first_term_ity (rt : rtypes) (p : bprod) : option ity :=
  match bp_terms p with
  | [] => None
  | (true, i) :: _ => Some (IT (terminal_ty tok err i))
  | (false, c) :: _ => Some (rt_get rt c)
  end.

Fixpoint reduce_type (fuel : nat) (rt : rtypes) (ri pi : nat) : rres :=
  match fuel with
  | O => RP PRecursion
  | S f =>
    match nth_error rules ri with
    | None => RP PBadIndex
    | Some r =>
      match br_kind r with
      | NotGenerated | SPrime => RT INil
      | ZeroOrOne =>
        match br_prods r with
        | [] => RP PIdxProds
        | p0 :: _ =>
          if negb (pi =? p0) then RT INil else
          match nth_error prods pi with
          | None => RP PBadIndex
          | Some p =>
            match first_term_ity rt p with
            | None => RP PIdxTerms
            | Some t => RT t
            end
          end
        end
      | ZeroOrMore | ZeroOrMoreF =>
        match br_prods r with
        | [] => RP PIdxProds
        | p0 :: _ =>
          if negb (pi =? p0) then RT INil else
          match nth_error prods pi with
          | None => RP PBadIndex
          | Some p =>
            match bp_terms p with
            | [] => RP PIdxTerms
            | (true, _) :: _ => RP PNotRule
            | (false, c) :: _ =>
              match nth_error rules c with
              | None => RP PBadIndex
              | Some rc =>
                match br_prods rc with
                | _ :: p1 :: _ =>
                  match reduce_type f rt c p1 with
                  | RP s => RP s
                  | RT INil => RP PAssertNil
                  | RT t => RT t
                  end
                | _ => RP PIdxProds
                end
              end
            end
          end
        end
      | OneOrMore | OneOrMoreF | ListK =>
        match br_prods r with
        | _ :: p1 :: _ =>
          if negb (pi =? p1) then RT INil else
          match nth_error prods pi with
          | None => RP PBadIndex
          | Some p =>
            match first_term_ity rt p with
            | None => RP PIdxTerms
            | Some t => RT (islice o t)
            end
          end
        | _ => RP PIdxProds
        end
      end
    end
  end.

(* under wf_input the productions of a rule are distinct, so the recursion
   stops at depth 2 (the inner call is made with Prods[1], which is not
   Prods[0]) *)
Definition reduce_fuel : nat := 2.

(* one round of the `for changed` loop *)
Inductive pres := PPanic (s : psite) | PDone (rt : rtypes) (changed : bool).

Fixpoint pass (ps : list (nat * bprod)) (rt : rtypes) (changed : bool) : pres :=
  match ps with
  | [] => PDone rt changed
  | ip :: rest =>
    match reduce_type reduce_fuel rt (bp_rule (snd ip)) (fst ip) with
    | RP s => PPanic s
    | RT INil => pass rest rt changed
    | RT t =>
      match rt_get rt (bp_rule (snd ip)) with
      | INil => pass rest ((bp_rule (snd ip), t) :: rt) true
      | ex => if ity_identical o ex t then pass rest rt changed
              else PPanic PAssertIdentical
      end
    end
  end.

Inductive dres := DvPanic (s : psite) | DvFuel | DvOk (rt : rtypes).

Fixpoint derive (fuel : nat) (rt : rtypes) : dres :=
  match fuel with
  | O => DvFuel
  | S f =>
    match pass (indexed prods) rt false with
    | PPanic s => DvPanic s
    | PDone rt' true => derive f rt'
    | PDone rt' false => DvOk rt'
    end
  end.

Definition derive_fuel : nat := List.length rules + 2.

(* "Check that every rule has been assigned a Go-type" *)
Definition missing_rules (rt : rtypes) : list bdiag :=
  flat_map (fun ir : nat * brule =>
              if is_sprime (br_kind (snd ir)) then []
              else if ity_is_nil (rt_get rt (fst ir)) then [DRuleMissingMethod (fst ir)]
              else [])
           (indexed rules).

(* getTermGoType *)
Definition term_ity (rt : rtypes) (t : bool * nat) : ity :=
  if fst t then IT (terminal_ty tok err (snd t)) else rt_get rt (snd t).

(* matchMethod / isMatch *)
Fixpoint params_match (rt : rtypes) (params : list ty) (terms : list (bool * nat)) : bool :=
  match params, terms with
  | [], [] => true
  | q :: params', t :: terms' =>
    match term_ity rt t with
    | IT s => assignable o s q && params_match rt params' terms'
    | _ => false
    end
  | _, _ => false
  end.

Definition is_match (rt : rtypes) (p : bprod) (m : meth) : bool :=
  params_match rt (m_params m) (bp_terms p).

Definition matches (rt : rtypes) (acts : list meth) (p : bprod) : list meth :=
  filter (is_match rt p) (group acts (name_of rules (bp_rule p))).

Definition user_prod (ip : nat * bprod) : bool := is_user (kind_of rules (bp_rule (snd ip))).

Definition user_prods : list (nat * bprod) := filter user_prod (indexed prods).

Definition phase4_errs (rt : rtypes) (acts : list meth) : list bdiag :=
  flat_map (fun ip : nat * bprod =>
              match matches rt acts (snd ip) with
              | [] => [DNoMatch (fst ip)]
              | [_] => []
              | _ :: _ :: _ => [DMultipleMatch (fst ip)]
              end) user_prods.

Definition phase4_panics (rt : rtypes) (acts : list meth) : bool :=
  existsb (fun ip : nat * bprod =>
             match matches rt acts (snd ip) with
             | [m] => negb (ity_identical o (IT (ret m)) (rt_get rt (bp_rule (snd ip))))
             | _ => false
             end) user_prods.

Definition phase4_binding (rt : rtypes) (acts : list meth) : list (nat * nat) :=
  flat_map (fun ip : nat * bprod =>
              match matches rt acts (snd ip) with
              | [m] => [(fst ip, m_id m)]
              | _ => []
              end) user_prods.

Definition unassigned (acts : list meth) (b : list (nat * nat)) : list bdiag :=
  map (fun m => DUnassigned (m_id m))
      (filter (fun m => negb (existsb (fun pm : nat * nat => snd pm =? m_id m) b)) acts).

Definition ity_ty (t : ity) : option ty := match t with IT x => Some x | _ => None end.

Definition rule_types_of (rt : rtypes) : list (nat * ty) :=
  flat_map (fun ir : nat * brule =>
              match ity_ty (rt_get rt (fst ir)) with
              | Some t => [(fst ir, t)]
              | None => []
              end) (indexed rules).

Definition assign_actions_wf (ms : list meth) : result :=
  let acts := actions ms in
  match phase0_errs ms with
  | (_ :: _) as e => BErr (sort_diags e)
  | [] =>
    match phase1_errs acts with
    | (_ :: _) as e => BErr (sort_diags e)
    | [] =>
      match derive derive_fuel (phase1_types acts) with
      | DvPanic s => BPanic s
      | DvFuel => BFuel
      | DvOk rt =>
        match missing_rules rt with
        | (_ :: _) as e => BErr (sort_diags e)
        | [] =>
          if phase4_panics rt acts then BPanic PAssertReturn else
          match phase4_errs rt acts with
          | (_ :: _) as e => BErr (sort_diags e)
          | [] =>
            let b := phase4_binding rt acts in
            match unassigned acts b with
            | (_ :: _) as e => BErr (sort_diags e)
            | [] => BOk b (rule_types_of rt)
            end
          end
        end
      end
    end
  end.

End WithOracle.

Definition assign_actions (o : oracle) (tok err : ty)
           (rules : list brule) (prods : list bprod) (ms : list meth) : result :=
  if wf_input rules prods ms then assign_actions_wf o tok err rules prods ms
  else BIllFormed.

(* ------------------------------------------------------------------ *)
(* run-time value flow: `_cast[T](v any) T { cv, _ := v.(T); return cv }` *)

Inductive dyn :=
| DNil                          (* the nil interface value *)
| DVal (t : ty) (payload : nat) (* an `any` holding a value of dynamic type t *)
| DZero (t : ty).               (* the zero value of the non-interface type t *)

(* the zero value of T stored back into an `any`: for an interface type that
   is the nil interface *)
Definition zero_of (o : oracle) (T : ty) : dyn :=
  if is_interface o T then DNil else DZero T.

Definition dyn_type (o : oracle) (v : dyn) : option ty :=
  match v with
  | DNil => None
  | DVal t _ => Some t
  | DZero t => if is_interface o t then None else Some t
  end.

Definition cast (o : oracle) (target : ty) (v : dyn) : dyn :=
  match dyn_type o v with
  | None => zero_of o target
  | Some t =>
    if is_interface o target then
      (if implements o t target then v else zero_of o target)
    else
      (if identical o t target then v else zero_of o target)
  end.

(* The template (since commit 156a4e1): each parameter of a user action
   receives _cast[<Go type of the TERM>](stack value); the call converts it
   implicitly to the parameter type, which assignability allows and which
   keeps the value.  (A variadic last parameter gets `...` at the call since
   0c3cc7f; nothing to model.) *)
Definition param_value (o : oracle) (term_type : ty) (v : dyn) : dyn :=
  cast o term_type v.

Definition param_value_repaired := param_value.

(* the pinned tree's template: _cast[<type of parameter i of the bound
   method>](stack value) - see BindingProofs.cast_zero_refuted *)
Definition param_value_old (o : oracle) (m : meth) (i : nat) (v : dyn) : dyn :=
  cast o (nth i (m_params m) 0) v.

(* get_term_go_type with the rule types returned by assign_actions *)
Fixpoint rtl_get (rtl : list (nat * ty)) (i : nat) : option ty :=
  match rtl with
  | [] => None
  | (j, t) :: rest => if j =? i then Some t else rtl_get rest i
  end.

Definition term_go_type (tok err : ty) (rtl : list (nat * ty)) (t : bool * nat) : option ty :=
  if fst t then Some (terminal_ty tok err (snd t)) else rtl_get rtl (snd t).

(* the arguments of the action call for production p, given the stack values
   of its terms (first term first) *)
Fixpoint action_args (o : oracle) (tok err : ty) (rtl : list (nat * ty))
         (terms : list (bool * nat)) (vs : list dyn) : list dyn :=
  match terms, vs with
  | t :: terms', v :: vs' =>
    (match term_go_type tok err rtl t with
     | Some s => param_value o s v
     | None => v
     end) :: action_args o tok err rtl terms' vs'
  | _, _ => []
  end.

(* a value that an expression of static type S can hold *)
Definition has_static_type (o : oracle) (S : ty) (v : dyn) : bool :=
  match dyn_type o v with
  | None => is_interface o S
  | Some t => if is_interface o S then implements o t S else identical o t S
  end.

(* Generated rules.  The element type REGISTERED for a generated rule
   (getReduceTypeForGeneratedRule) and the element type of the value BUILT by
   the one_or_more / list templates (get_term_go_type) are the same function
   since commit e7bf6de. *)
Definition built_elem_type (tok err : ty) (rt : rtypes) (t : bool * nat) : ity :=
  term_ity tok err rt t.
Definition registered_elem_type (tok err : ty) (rt : rtypes) (t : bool * nat) : ity :=
  if fst t then IT (terminal_ty tok err (snd t)) else rt_get rt (snd t).

(* ------------------------------------------------------------------ *)
(* The shape of a grammar after lox's desugaring (ast/parser_term.go), as a
   check: no action method is named after a generated rule; `c?` has a first
   production with a term; `c+`, `c+!`, `@list(c,s)` have a second production
   whose first term is a token or a user rule; `c*`, `c*!` start with such a
   `+` rule.  BindingComplete.binding_verdict_exact holds for inputs that pass
   it (and on them assign_actions never answers BPanic or BFuel). *)
Definition is_plusb (k : rkind') : bool :=
  match k with OneOrMore | OneOrMoreF | ListK => true | _ => false end.

Definition elem_okb (rules : list brule) (prods : list bprod) (pi : nat) : bool :=
  match nth_error prods pi with
  | Some p =>
    match bp_terms p with
    | x :: _ => fst x || is_user (kind_of rules (snd x))
    | [] => false
    end
  | None => false
  end.

Definition gen_shape_okb (rules : list brule) (prods : list bprod) (r : brule) : bool :=
  match br_kind r with
  | NotGenerated | SPrime => true
  | ZeroOrOne =>
    match br_prods r with
    | p0 :: _ =>
      match nth_error prods p0 with
      | Some p => match bp_terms p with _ :: _ => true | [] => false end
      | None => false
      end
    | [] => false
    end
  | OneOrMore | OneOrMoreF | ListK =>
    match br_prods r with
    | _ :: p1 :: _ => elem_okb rules prods p1
    | _ => false
    end
  | ZeroOrMore | ZeroOrMoreF =>
    match br_prods r with
    | p0 :: _ =>
      match nth_error prods p0 with
      | Some p =>
        match bp_terms p with
        | (false, c) :: _ =>
          match nth_error rules c with
          | Some rc =>
            is_plusb (br_kind rc) &&
            match br_prods rc with
            | _ :: p1 :: _ => elem_okb rules prods p1
            | _ => false
            end
          | None => false
          end
        | _ => false
        end
      | None => false
      end
    | [] => false
    end
  end.

Definition meth_shape_okb (rules : list brule) (m : meth) : bool :=
  match rule_of m with
  | None => true
  | Some r =>
    forallb (fun rl => negb (String.eqb (br_name rl) r) || is_user (br_kind rl)) rules
  end.

Definition shape_okb (rules : list brule) (prods : list bprod) (ms : list meth) : bool :=
  forallb (meth_shape_okb rules) ms && forallb (gen_shape_okb rules prods) rules.
