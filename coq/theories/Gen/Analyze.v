(* Executable model of the semantic analysis lox performs on a specification
   (the .lox files of one package) before it generates anything:
   /repo/internal/ast (Context.Analyze and the RunPass methods),
   /repo/internal/parser/parser.go (how the AST is built).

   1. [analyze]          : exact mirror of the diagnostics (errors, not the
                           "info" lines) of the FIRST pass that reports any,
                           in report order; [] when the spec is accepted.
   2. [well_formed]      : property C17's list as a decidable predicate.
   3. [well_formed_weak] : what lox really enforces ([well_formed] minus the
                           one clause lox does not check: the shape of parser
                           rule names, see the end of file).

   The model follows the tree AFTER the fixes c05ffe8 (reversed class range
   rejected), 938df3a (macro cycles found in the Check pass, used or not) and
   b7deef5 (empty literal '' as a parser term rejected).

   Definitions only (extracted to OCaml and run against the real tool); the
   theorems are in AnalyzeProofs.v, AnalyzeBlame.v and AnalyzeExamples.v.

   Pass order (context.go): CreateNames, Check, Normalize, GenerateGrammar;
   Context.Analyze stops after the first pass that logged an error.
   Normalize cannot log (the helper rules it creates are named "X*", "X+",
   "X?", "X*!", "X+!", "@list(X,Y)", "@list(X,Y)?" which no user name can equal and
   it asserts the absence of errors), so it is not modelled.
   Not modelled either: errors of the syntax phase (they stop lox before
   Analyze, e.g. "@list term can only use the zero-or-more '?' cardinality")
   and mode.go's "Conflicting lexer actions" (needs the DFA; only between
   rules of different files). *)
From Coq Require Import List String Ascii ZArith Bool Arith.
Import ListNotations.

(* ------------------------------------------------------------------ *)
(* The abstract specification type (shared with the harness)           *)

Inductive card := COne | CZeroOrOne | CZeroOrMore | CZeroOrMoreNG | COneOrMore | COneOrMoreNG.

Inductive lterm :=
| LLit (cps : list Z)              (* literal: its code points after unescaping *)
| LRef (name : string)             (* reference to a macro *)
| LClass (c : list (Z * Z))        (* raw class items after pairing (from,to) *)
| LGroup (alts : list (list (lterm * card))).

Definition lexpr := list (list (lterm * card)).      (* alternatives of sequences *)

(* [APush m]: "@push_mode(m)"; "@push_mode()" is [APush "$default"]
   (parser.go on_action_push_mode). *)
Inductive laction := ADiscard | APush (mode : string) | APop | AEmit (tok : string).

Inductive pcard := PZeroOrMore | PZeroOrMoreF | POneOrMore | PZeroOrOne.

(* [PAlias lit]: a literal used as a parser term; [lit] is the unescaped
   literal as a byte string (UTF-8), i.e. Go's string. *)
Inductive pterm :=
| PName (n : string) | PAlias (lit : string) | PError
| PCard (k : pcard) (t : pterm) | PList (elem sep : pterm) (opt : bool).

Inductive decl :=
| DToken (id : nat) (name : string) (e : lexpr) (acts : list laction)
| DFrag (id : nat) (e : lexpr) (acts : list laction)
| DMacro (id : nat) (name : string) (e : lexpr)
| DExternal (id : nat) (names : list string)
| DMode (id : nat) (name : string) (body : list decl)
| DRule (id : nat) (start : bool) (name : string) (prods : list (list pterm)).

Definition spec := list (list decl).   (* files, in the order lox reads them *)

Inductive dkind :=
| KRedefined | KBadName | KReservedName | KUndefined | KNotAToken | KNotAMacro
| KNotRuleOrToken | KUnknownAlias | KAmbiguousAlias | KUndefinedMode
| KStartRedefined | KStartUndefined | KEmptyLiteral | KTokenDiscard | KTokenEmit
| KFragTwoDiscard | KFragTwoEmit | KFragDiscardAndEmit | KMacroCycle
| KListEntryNotSimple | KListSepNotSimple | KOther
| KBadRange.                         (* appended last: constructor indices are stable *)

(* kind, id of the declaration the reported position lies in *)
Definition diag := (dkind * option nat)%type.

(* Message text -> dkind:
   "N redefined" KRedefined; "name must be all uppercase..." KBadName;
   "sorry, "N" is a reserved name" KReservedName; "undefined: N" KUndefined;
   "not a token: N" KNotAToken; "term is not a macro: N" KNotAMacro;
   "N is not a parser or token rule" KNotRuleOrToken;
   "unknown token literal: 'x'" KUnknownAlias; "ambiguous token literal: 'x'"
   KAmbiguousAlias; "undefined mode: N" KUndefinedMode; "@start redefined: N"
   KStartRedefined; "@start rule undefined" KStartUndefined (no position);
   "literal cannot be empty" KEmptyLiteral; "tokens cannot be discarded; use
   @frag instead" KTokenDiscard; "@emit is not allowed in token actions"
   KTokenEmit; "@frag can only have one @discard action" KFragTwoDiscard;
   "@frag can only have one @emit action" KFragTwoEmit; "@frag cannot be
   discarded and emitted at the same time" KFragDiscardAndEmit; "macro cycle
   detected" KMacroCycle (position: the macro that closes the cycle);
   "@list entry param must be a simple token or rule" KListEntryNotSimple;
   "@list separator param must be a simple token or rule" KListSepNotSimple;
   "invalid character range 'z'-'a': lower bound is above upper bound"
   KBadRange.  KOther is never produced by this model. *)

Definition decl_id (d : decl) : nat :=
  match d with
  | DToken id _ _ _ | DFrag id _ _ | DMacro id _ _ | DExternal id _
  | DMode id _ _ | DRule id _ _ _ => id
  end.

(* ------------------------------------------------------------------ *)
(* validateTokenName (lexer_token_rule.go)                             *)

Definition in_range (lo hi : nat) (c : ascii) : bool :=
  let n := nat_of_ascii c in (lo <=? n) && (n <=? hi).
Definition is_upper := in_range 65 90.
Definition is_lower := in_range 97 122.
Definition is_digit := in_range 48 57.
Definition is_us := in_range 95 95.

Fixpoint all_chars (p : ascii -> bool) (s : string) : bool :=
  match s with
  | EmptyString => true
  | String c r => p c && all_chars p r
  end.

Fixpoint ends_with_us (s : string) : bool :=
  match s with
  | EmptyString => false
  | String c r => match r with EmptyString => is_us c | String _ _ => ends_with_us r end
  end.

Fixpoint has_double_us (s : string) : bool :=
  match s with
  | EmptyString => false
  | String c r =>
      match r with
      | EmptyString => false
      | String c2 _ => (is_us c && is_us c2) || has_double_us r
      end
  end.

(* regexp ^[A-Z][A-Z0-9_]*$ *)
Definition token_regex (s : string) : bool :=
  match s with
  | EmptyString => false
  | String c r => is_upper c && all_chars (fun c => is_upper c || is_digit c || is_us c) r
  end.

Definition reserved_name (s : string) : bool := String.eqb s "EOF"%string || String.eqb s "ERROR"%string.

Inductive name_verdict := NameOk | NameBad | NameReserved.

Definition validate_token_name (s : string) : name_verdict :=
  if negb (token_regex s) || ends_with_us s || has_double_us s then NameBad
  else if reserved_name s then NameReserved
  else NameOk.

(* ------------------------------------------------------------------ *)
(* UTF-8 (the alias table is keyed by the literal as a Go string)      *)

Definition byte_of (z : Z) : ascii := ascii_of_N (Z.to_N z).

Definition utf8_cp (c : Z) : list ascii :=
  (if c <? 128 then [byte_of c]
   else if c <? 2048 then [byte_of (192 + c / 64); byte_of (128 + c mod 64)]
   else if c <? 65536 then
     [byte_of (224 + c / 4096); byte_of (128 + (c / 64) mod 64); byte_of (128 + c mod 64)]
   else
     [byte_of (240 + c / 262144); byte_of (128 + (c / 4096) mod 64);
      byte_of (128 + (c / 64) mod 64); byte_of (128 + c mod 64)])%Z.

Definition utf8 (cps : list Z) : string := string_of_list_ascii (flat_map utf8_cp cps).

(* ------------------------------------------------------------------ *)
(* Flattening                                                          *)

(* The leaves of a lexer term, in the order lox visits them (RunPass and
   NFACons both go alternatives, then sequence, left to right). *)
Fixpoint lterm_atoms (t : lterm) : list lterm :=
  match t with
  | LGroup alts =>
      flat_map (fun sq => flat_map (fun tc => lterm_atoms (fst tc)) sq) alts
  | _ => [t]
  end.

Definition lexpr_atoms (e : lexpr) : list lterm :=
  flat_map (fun sq => flat_map (fun tc => lterm_atoms (fst tc)) sq) e.

(* A declaration followed by the declarations nested in it (mode bodies),
   in source order = the order every pass visits them. *)
Fixpoint flat_decl (d : decl) : list decl :=
  match d with
  | DMode _ _ body => d :: flat_map flat_decl body
  | _ => [d]
  end.

Definition all_decls (s : spec) : list decl := flat_map flat_decl (List.concat s).

(* ------------------------------------------------------------------ *)
(* Name tables                                                         *)

(* What a name denotes (ctx.names : one map for tokens, macros, modes, rules
   and external names). *)
Inductive entry :=
| EToken (id : nat) | EMacro (id : nat) (body : lexpr) | EExternal (id : nat)
| EMode (id : nat) | ERule (id : nat).

Definition names := list (string * entry).

Fixpoint lookup (n : string) (t : names) : option entry :=
  match t with
  | [] => None
  | (m, e) :: r => if String.eqb n m then Some e else lookup n r
  end.

Definition mem_str (n : string) (l : list string) : bool := existsb (String.eqb n) l.

Fixpoint count_str (n : string) (l : list string) : nat :=
  match l with
  | [] => 0
  | m :: r => (if String.eqb n m then 1 else 0) + count_str n r
  end.

(* The analysis context after (part of) CreateNames.
   n_aliases: one entry per registered token that is exactly one literal with
   cardinality One (ctx.aliases; a literal occurring twice is ambiguous);
   n_modes: ctx.LexerModes; n_start: ctx.StartParserRule != nil;
   n_rules: ctx.HasParserRules. *)
Record nstate := mkN {
  n_names : names;
  n_aliases : list string;
  n_modes : list string;
  n_start : bool;
  n_rules : bool }.

Definition default_mode : string := "$default"%string.

(* NewContext + Spec.RunPass(CreateNames): the default mode exists. *)
Definition nstate0 : nstate := mkN [] [] [default_mode] false false.

Definition add_name (n : string) (e : entry) (st : nstate) : nstate :=
  mkN (n_names st ++ [(n, e)]) (n_aliases st) (n_modes st) (n_start st) (n_rules st).
Definition add_alias (a : string) (st : nstate) : nstate :=
  mkN (n_names st) (n_aliases st ++ [a]) (n_modes st) (n_start st) (n_rules st).
Definition add_mode (m : string) (st : nstate) : nstate :=
  mkN (n_names st) (n_aliases st) (n_modes st ++ [m]) (n_start st) (n_rules st).
Definition set_start (st : nstate) : nstate :=
  mkN (n_names st) (n_aliases st) (n_modes st) true (n_rules st).
Definition set_rules (st : nstate) : nstate :=
  mkN (n_names st) (n_aliases st) (n_modes st) (n_start st) true.

(* "len(Factors)==1 && len(Terms)==1 && Card==One && Term is a literal" *)
Definition simple_literal (e : lexpr) : option (list Z) :=
  match e with
  | [[(LLit cps, COne)]] => Some cps
  | _ => None
  end.

(* ------------------------------------------------------------------ *)
(* Pass 1: CreateNames                                                 *)

(* validateTokenName (when [validate]) then RegisterName.  The declaration
   that comes second is the one blamed for a redefinition; a rejected name is
   not registered. *)
Definition cn_name (validate : bool) (n : string) (e : entry) (id : nat) (st : nstate)
  : nstate * list diag :=
  match (if validate then validate_token_name n else NameOk) with
  | NameBad => (st, [(KBadName, Some id)])
  | NameReserved => (st, [(KReservedName, Some id)])
  | NameOk =>
      match lookup n (n_names st) with
      | Some _ => (st, [(KRedefined, Some id)])
      | None => (add_name n e st, [])
      end
  end.

(* ExternalRule: every name is tried, independently of the others. *)
Fixpoint cn_ext (id : nat) (ns : list string) (st : nstate) : nstate * list diag :=
  match ns with
  | [] => (st, [])
  | n :: r =>
      let '(st1, d1) := cn_name true n (EExternal id) id st in
      let '(st2, d2) := cn_ext id r st1 in
      (st2, d1 ++ d2)
  end.

(* What the declaration itself does in CreateNames (mode bodies apart). *)
Definition cn_own (d : decl) (st : nstate) : nstate * list diag :=
  match d with
  | DToken id n e _ =>
      let '(st1, d1) := cn_name true n (EToken id) id st in
      match d1 with
      | [] => (match simple_literal e with
               | Some cps => add_alias (utf8 cps) st1
               | None => st1
               end, [])
      | _ => (st1, d1)
      end
  | DFrag _ _ _ => (st, [])
  | DMacro id n e => cn_name true n (EMacro id e) id st
  | DExternal id ns => cn_ext id ns st
  | DMode id n _ =>
      let '(st1, d1) := cn_name false n (EMode id) id st in
      match d1 with
      | [] => (add_mode n st1, [])
      | _ => (st1, d1)
      end
  | DRule id start n _ =>
      let '(st1, d1) := cn_name false n (ERule id) id (set_rules st) in
      match d1 with
      | [] =>
          if start then
            if n_start st1 then (st1, [(KStartRedefined, Some id)])
            else (set_start st1, [])
          else (st1, [])
      | _ => (st1, d1)
      end
  end.

(* Mode.RunPass: when the mode's name is rejected its body is not visited. *)
Fixpoint cn_decl (d : decl) (st : nstate) {struct d} : nstate * list diag :=
  let '(st1, d1) := cn_own d st in
  match d with
  | DMode _ _ body =>
      match d1 with
      | [] =>
          (fix go (ds : list decl) (st : nstate) {struct ds} : nstate * list diag :=
             match ds with
             | [] => (st, [])
             | d :: r =>
                 let '(st1, d1) := cn_decl d st in
                 let '(st2, d2) := go r st1 in
                 (st2, d1 ++ d2)
             end) body st1
      | _ => (st1, d1)
      end
  | _ => (st1, d1)
  end.

Fixpoint cn_decls (ds : list decl) (st : nstate) {struct ds} : nstate * list diag :=
  match ds with
  | [] => (st, [])
  | d :: r =>
      let '(st1, d1) := cn_decl d st in
      let '(st2, d2) := cn_decls r st1 in
      (st2, d1 ++ d2)
  end.

Definition pass_names (s : spec) : nstate * list diag := cn_decls (List.concat s) nstate0.

(* ------------------------------------------------------------------ *)
(* Macro expansion (used by Check for cycles and by GenerateGrammar)   *)

(* MacroRule.NFACons (GenerateGrammar): a macro is expanded every time a token
   or fragment rule reaches it; [stk] = the macros whose cycleDetect flag is
   set.  Since 938df3a a cyclic macro no longer gets this far (Check fails
   first); the code is still there and so is its mirror.  The diagnostic is positioned at the macro that is re-entered, expansion then
   continues with the next term.  Each recursive call pushes a macro that is
   not on the stack, so [fuel] > number of names is never exhausted (the fuel
   branch reports a cycle to stay on the safe side). *)
Fixpoint expand_atom (tbl : names) (fuel : nat) (stk : list string) (a : lterm)
  {struct fuel} : list diag :=
  match a with
  | LRef n =>
      match lookup n tbl with
      | Some (EMacro mid body) =>
          if mem_str n stk then [(KMacroCycle, Some mid)]
          else match fuel with
               | 0 => [(KMacroCycle, Some mid)]
               | S f => flat_map (expand_atom tbl f (n :: stk)) (lexpr_atoms body)
               end
      | _ => []
      end
  | _ => []
  end.

Definition expand_fuel (tbl : names) : nat := S (List.length tbl).

Definition expand_lexpr (tbl : names) (e : lexpr) : list diag :=
  flat_map (expand_atom tbl (expand_fuel tbl) []) (lexpr_atoms e).

(* MacroRule.checkCycle (Check pass): the same depth-first walk over macro
   references BY NAME, but the descent into a referenced macro happens only
   while no error at all has been logged (!ctx.Errs.HasError()), so the walk
   stops at the first re-entered macro: the first diagnostic [expand_atom]
   would produce, computed directly. *)
Fixpoint first_some {A B : Type} (f : A -> option B) (l : list A) : option B :=
  match l with
  | [] => None
  | a :: r => match f a with Some b => Some b | None => first_some f r end
  end.

Fixpoint cyc_atom (tbl : names) (fuel : nat) (stk : list string) (a : lterm)
  {struct fuel} : option diag :=
  match a with
  | LRef n =>
      match lookup n tbl with
      | Some (EMacro mid body) =>
          if mem_str n stk then Some (KMacroCycle, Some mid)
          else match fuel with
               | 0 => Some (KMacroCycle, Some mid)
               | S f => first_some (cyc_atom tbl f (n :: stk)) (lexpr_atoms body)
               end
      | _ => None
      end
  | _ => None
  end.

(* checkCycle of macro [n] = [e], called with nothing logged so far *)
Definition macro_cycle_diag (tbl : names) (n : string) (e : lexpr) : list diag :=
  match first_some (cyc_atom tbl (List.length tbl) [n]) (lexpr_atoms e) with
  | Some d => [d]
  | None => []
  end.

(* ------------------------------------------------------------------ *)
(* Pass 2: Check.  Mode.RunPass only iterates its rules here, so the pass is
   a plain left-to-right traversal of [all_decls].                       *)

(* LexerTermLiteral / LexerTermRef / LexerTermCharClass .RunPass(Check).
   CharClass.RunPass: one diagnostic per item with From > To, in item order
   (for a difference: the items of the left class, then of the right). *)
Definition ck_range (id : nat) (it : Z * Z) : list diag :=
  if (snd it <? fst it)%Z then [(KBadRange, Some id)] else [].

Definition ck_atom (st : nstate) (id : nat) (a : lterm) : list diag :=
  match a with
  | LLit [] => [(KEmptyLiteral, Some id)]
  | LLit _ => []
  | LRef n =>
      match lookup n (n_names st) with
      | None => [(KUndefined, Some id)]
      | Some (EMacro _ _) => []
      | Some _ => [(KNotAMacro, Some id)]
      end
  | LClass items => flat_map (ck_range id) items
  | LGroup _ => []
  end.

Definition ck_lexpr (st : nstate) (id : nat) (e : lexpr) : list diag :=
  flat_map (ck_atom st id) (lexpr_atoms e).

(* action.go *)
Definition ck_action (st : nstate) (id : nat) (a : laction) : list diag :=
  match a with
  | ADiscard | APop => []
  | APush m => if mem_str m (n_modes st) then [] else [(KUndefinedMode, Some id)]
  | AEmit t =>
      match lookup t (n_names st) with
      | None => [(KUndefined, Some id)]
      | Some (EToken _) => []
      | Some _ => [(KNotAToken, Some id)]
      end
  end.

Definition pterm_simple (t : pterm) : bool :=
  match t with PName _ | PAlias _ => true | _ => false end.

(* parser_term.go preCheck, children, postCheck.  An EMPTY literal '' is
   "literal cannot be empty".  An external name is "not a parser or token
   rule". *)
Fixpoint ck_pterm (st : nstate) (id : nat) (t : pterm) : list diag :=
  match t with
  | PName n =>
      match lookup n (n_names st) with
      | None => [(KUndefined, Some id)]
      | Some (ERule _) | Some (EToken _) => []
      | Some _ => [(KNotRuleOrToken, Some id)]
      end
  | PAlias lit =>
      if String.eqb lit ""%string then [(KEmptyLiteral, Some id)]
      else match count_str lit (n_aliases st) with
           | 0 => [(KUnknownAlias, Some id)]
           | 1 => []
           | _ => [(KAmbiguousAlias, Some id)]
           end
  | PError => []
  | PCard _ c => ck_pterm st id c
  | PList e sp _ =>
      ck_pterm st id e ++ ck_pterm st id sp ++
      (if negb (pterm_simple e) then [(KListEntryNotSimple, Some id)]
       else if negb (pterm_simple sp) then [(KListSepNotSimple, Some id)]
       else [])
  end.

Definition nonempty {A : Type} (l : list A) : bool := match l with [] => false | _ => true end.

(* [err]: has anything been logged so far (ctx.Errs.HasError(); CreateNames
   logged nothing, else Check would not run).  Only MacroRule.checkCycle looks
   at it: after the macro's own expression has been checked, the cycle walk
   runs only if nothing at all has been logged -- so the whole run reports at
   most one macro cycle, and none after any other diagnostic. *)
Definition ck_decl (st : nstate) (err : bool) (d : decl) : list diag :=
  match d with
  | DToken id _ e acts | DFrag id e acts => ck_lexpr st id e ++ flat_map (ck_action st id) acts
  | DMacro id n e =>
      let d1 := ck_lexpr st id e in
      d1 ++ (if err || nonempty d1 then [] else macro_cycle_diag (n_names st) n e)
  | DExternal _ _ => []
  | DMode _ _ _ => []                      (* body: see all_decls *)
  | DRule id _ _ prods => flat_map (flat_map (ck_pterm st id)) prods
  end.

Fixpoint ck_decls (st : nstate) (err : bool) (ds : list decl) : list diag :=
  match ds with
  | [] => []
  | d :: r => let dd := ck_decl st err d in dd ++ ck_decls st (err || nonempty dd) r
  end.

Definition pass_check (st : nstate) (s : spec) : list diag :=
  ck_decls st false (all_decls s).

(* ------------------------------------------------------------------ *)
(* Pass 4: GenerateGrammar                                             *)

(* TokenRule: the first @discard or @emit is reported and the rule is left. *)
Fixpoint token_actions (id : nat) (acts : list laction) : list diag :=
  match acts with
  | [] => []
  | ADiscard :: _ => [(KTokenDiscard, Some id)]
  | AEmit _ :: _ => [(KTokenEmit, Some id)]
  | _ :: r => token_actions id r
  end.

(* FragRule: second @discard / second @emit inside the loop, both after it. *)
Fixpoint frag_actions (id : nat) (has_d has_e : bool) (acts : list laction) : list diag :=
  match acts with
  | [] => if has_d && has_e then [(KFragDiscardAndEmit, Some id)] else []
  | ADiscard :: r =>
      if has_d then [(KFragTwoDiscard, Some id)] else frag_actions id true has_e r
  | AEmit _ :: r =>
      if has_e then [(KFragTwoEmit, Some id)] else frag_actions id has_d true r
  | _ :: r => frag_actions id has_d has_e r
  end.

Definition gen_decl (st : nstate) (d : decl) : list diag :=
  match d with
  | DToken id _ e acts => expand_lexpr (n_names st) e ++ token_actions id acts
  | DFrag id e acts => expand_lexpr (n_names st) e ++ frag_actions id false false acts
  | _ => []
  end.

(* Spec.RunPass: "@start rule undefined" only when nothing else was logged
   (ctx.Errs.HasError() short-circuit) and there are parser rules. *)
Definition pass_gen (st : nstate) (s : spec) : list diag :=
  match flat_map (gen_decl st) (all_decls s) with
  | [] => if n_rules st && negb (n_start st) then [(KStartUndefined, None)] else []
  | d => d
  end.

(* ------------------------------------------------------------------ *)

Definition analyze (s : spec) : list diag :=
  let '(st, d1) := pass_names s in
  match d1 with
  | _ :: _ => d1
  | [] =>
      match pass_check st s with
      | (_ :: _) as d2 => d2
      | [] => pass_gen st s
      end
  end.

(* ------------------------------------------------------------------ *)
(* The property's list as a decidable predicate                        *)

(* The tables every clause refers to: all declarations, in source order. *)
Definition own_names (d : decl) : names :=
  match d with
  | DToken id n _ _ => [(n, EToken id)]
  | DFrag _ _ _ => []
  | DMacro id n e => [(n, EMacro id e)]
  | DExternal id ns => map (fun n => (n, EExternal id)) ns
  | DMode id n _ => [(n, EMode id)]
  | DRule id _ n _ => [(n, ERule id)]
  end.

Definition own_aliases (d : decl) : list string :=
  match d with
  | DToken _ _ e _ => match simple_literal e with Some cps => [utf8 cps] | None => [] end
  | _ => []
  end.

Definition own_modes (d : decl) : list string :=
  match d with DMode _ n _ => [n] | _ => [] end.

Definition is_rule (d : decl) : bool := match d with DRule _ _ _ _ => true | _ => false end.
Definition is_start (d : decl) : bool := match d with DRule _ true _ _ => true | _ => false end.

Definition canon (s : spec) : nstate :=
  let ds := all_decls s in
  mkN (flat_map own_names ds) (flat_map own_aliases ds)
      (default_mode :: flat_map own_modes ds)
      (existsb is_start ds) (existsb is_rule ds).

Fixpoint nodupb (l : list string) : bool :=
  match l with
  | [] => true
  | x :: r => negb (mem_str x r) && nodupb r
  end.

(* Clause 1 : names unique across tokens, macros, modes, rules (and external
   names: they are token names declared elsewhere). *)
Definition wf_unique (s : spec) : bool := nodupb (map fst (n_names (canon s))).

(* Clause 2 : naming rules.
   - lexer_reference.md "Lexical Names" (upper case, starts with a letter,
     letters/digits/underscore, no trailing underscore, no double underscore,
     not EOF/ERROR) for tokens, macros and external token names.
     CHOICE: not for mode names -- the section says "names declared in a lexer
     section" but the reference's own examples name modes Alt and String.
   - parser_reference.md: rule names are Go identifiers that do not start with
     an underscore and have no consecutive underscores.  CHOICE: ASCII only
     ([A-Za-z][A-Za-z0-9_]*, what lox's ID token admits); Go keywords are not
     excluded (the name is only used as a suffix of "on_").
   [wf_lexical_names] is what lox enforces, [wf_rule_names] it does not. *)
Definition token_name_ok (n : string) : bool :=
  match validate_token_name n with NameOk => true | _ => false end.

Definition rule_name_ok (n : string) : bool :=
  match n with
  | EmptyString => false
  | String c r =>
      (is_upper c || is_lower c) &&
      all_chars (fun c => is_upper c || is_lower c || is_digit c || is_us c) r
  end && negb (has_double_us n).

Definition lexical_name_ok (d : decl) : bool :=
  match d with
  | DToken _ n _ _ | DMacro _ n _ => token_name_ok n
  | DExternal _ ns => forallb token_name_ok ns
  | _ => true
  end.

Definition rule_decl_name_ok (d : decl) : bool :=
  match d with DRule _ _ n _ => rule_name_ok n | _ => true end.

Definition wf_lexical_names (s : spec) : bool := forallb lexical_name_ok (all_decls s).
Definition wf_rule_names (s : spec) : bool := forallb rule_decl_name_ok (all_decls s).

(* Clause 3 : references.  A lexer term names a macro; @emit names a token;
   a parser term names a parser rule or a token.  CHOICE: an external name
   counts as neither (lox answers "X is not a parser or token rule" / "not a
   token: X" -- @external is undocumented; keeping lox's reading is what makes
   A1 provable). *)
Definition atom_ref_ok (st : nstate) (a : lterm) : bool :=
  match a with
  | LRef n => match lookup n (n_names st) with Some (EMacro _ _) => true | _ => false end
  | _ => true
  end.

Definition action_ref_ok (st : nstate) (a : laction) : bool :=
  match a with
  | AEmit t => match lookup t (n_names st) with Some (EToken _) => true | _ => false end
  | _ => true
  end.

Fixpoint pterm_ref_ok (st : nstate) (t : pterm) : bool :=
  match t with
  | PName n =>
      match lookup n (n_names st) with
      | Some (ERule _) | Some (EToken _) => true
      | _ => false
      end
  | PAlias _ | PError => true
  | PCard _ c => pterm_ref_ok st c
  | PList e sp _ => pterm_ref_ok st e && pterm_ref_ok st sp
  end.

Definition decl_refs_ok (st : nstate) (d : decl) : bool :=
  match d with
  | DToken _ _ e acts | DFrag _ e acts =>
      forallb (atom_ref_ok st) (lexpr_atoms e) && forallb (action_ref_ok st) acts
  | DMacro _ _ e => forallb (atom_ref_ok st) (lexpr_atoms e)
  | DRule _ _ _ prods => forallb (forallb (pterm_ref_ok st)) prods
  | _ => true
  end.

Definition wf_refs (s : spec) : bool := forallb (decl_refs_ok (canon s)) (all_decls s).

(* Clause 4 : literal aliases defined and unambiguous: exactly one token is
   that literal.  (The empty literal is clause 9's business.) *)
Fixpoint pterm_alias_ok (st : nstate) (t : pterm) : bool :=
  match t with
  | PAlias lit => String.eqb lit ""%string || (count_str lit (n_aliases st) =? 1)
  | PName _ | PError => true
  | PCard _ c => pterm_alias_ok st c
  | PList e sp _ => pterm_alias_ok st e && pterm_alias_ok st sp
  end.

Definition decl_aliases_ok (st : nstate) (d : decl) : bool :=
  match d with
  | DRule _ _ _ prods => forallb (forallb (pterm_alias_ok st)) prods
  | _ => true
  end.

Definition wf_aliases (s : spec) : bool :=
  forallb (decl_aliases_ok (canon s)) (all_decls s).

(* Clause 5 : @push_mode names a declared mode (or the default mode). *)
Definition action_mode_ok (st : nstate) (a : laction) : bool :=
  match a with APush m => mem_str m (n_modes st) | _ => true end.

Definition decl_modes_ok (st : nstate) (d : decl) : bool :=
  match d with
  | DToken _ _ _ acts | DFrag _ _ acts => forallb (action_mode_ok st) acts
  | _ => true
  end.

Definition wf_modes (s : spec) : bool := forallb (decl_modes_ok (canon s)) (all_decls s).

(* Clause 6 : exactly one @start.  CHOICE: a specification without parser
   rules (lexer only) needs none. *)
Definition count_start (s : spec) : nat := List.length (filter is_start (all_decls s)).

Definition wf_start (s : spec) : bool :=
  (count_start s <=? 1) && (negb (existsb is_rule (all_decls s)) || (1 <=? count_start s)).

(* Clause 7 : no @discard, no @emit on a token. *)
Definition is_discard (a : laction) : bool := match a with ADiscard => true | _ => false end.
Definition is_emit (a : laction) : bool := match a with AEmit _ => true | _ => false end.

Definition decl_token_actions_ok (d : decl) : bool :=
  match d with
  | DToken _ _ _ acts => forallb (fun a => negb (is_discard a) && negb (is_emit a)) acts
  | _ => true
  end.

Definition wf_token_actions (s : spec) : bool := forallb decl_token_actions_ok (all_decls s).

(* Clause 8 : a fragment has at most one @discard, at most one @emit -- and
   not both (lox: "cannot be discarded and emitted at the same time"; CHOICE:
   part of well-formedness, the two actions contradict each other). *)
Definition decl_frag_actions_ok (d : decl) : bool :=
  match d with
  | DFrag _ _ acts =>
      let nd := List.length (filter is_discard acts) in
      let ne := List.length (filter is_emit acts) in
      (nd <=? 1) && (ne <=? 1) && (nd + ne <=? 1)
  | _ => true
  end.

Definition wf_frag_actions (s : spec) : bool := forallb decl_frag_actions_ok (all_decls s).

(* Clause 9 : no empty literal, neither in a lexer expression nor as a parser
   term. *)
Definition atom_lit_ok (a : lterm) : bool :=
  match a with LLit [] => false | _ => true end.

Fixpoint pterm_lit_ok (t : pterm) : bool :=
  match t with
  | PAlias lit => negb (String.eqb lit ""%string)
  | PName _ | PError => true
  | PCard _ c => pterm_lit_ok c
  | PList e sp _ => pterm_lit_ok e && pterm_lit_ok sp
  end.

Definition decl_expr (d : decl) : option lexpr :=
  match d with
  | DToken _ _ e _ | DFrag _ e _ | DMacro _ _ e => Some e
  | _ => None
  end.

Definition decl_atoms (d : decl) : list lterm :=
  match decl_expr d with Some e => lexpr_atoms e | None => [] end.

Definition decl_literals_ok (d : decl) : bool :=
  forallb atom_lit_ok (decl_atoms d) &&
  match d with DRule _ _ _ prods => forallb (forallb pterm_lit_ok) prods | _ => true end.

Definition wf_literals (s : spec) : bool := forallb decl_literals_ok (all_decls s).

(* Clause 10 : every class item has lower bound <= upper bound. *)
Definition atom_ranges_ok (a : lterm) : bool :=
  match a with
  | LClass items => forallb (fun it => (fst it <=? snd it)%Z) items
  | _ => true
  end.

Definition wf_ranges (s : spec) : bool :=
  forallb (fun d => forallb atom_ranges_ok (decl_atoms d)) (all_decls s).

(* Clause 11 : no macro cycle.  [acyclic_atoms tbl fuel stk l]: following the
   references of [l] never re-enters a macro of [stk] (and the fuel suffices).
   [wf_macros_acyclic]: from EVERY macro, used or not (the Check pass).
   [wf_reachable_acyclic]: from the token and fragment rules only (what the
   GenerateGrammar expansion visits); implied by the former, auxiliary. *)
Definition acyclic_atoms (tbl : names) (fuel : nat) (stk : list string) (l : list lterm) : bool :=
  match flat_map (expand_atom tbl fuel stk) l with [] => true | _ => false end.

Definition macro_acyclic (tbl : names) (d : decl) : bool :=
  match d with
  | DMacro _ n e => acyclic_atoms tbl (List.length tbl) [n] (lexpr_atoms e)
  | _ => true
  end.

Definition wf_macros_acyclic (s : spec) : bool :=
  forallb (macro_acyclic (n_names (canon s))) (all_decls s).

Definition rule_acyclic (tbl : names) (d : decl) : bool :=
  match d with
  | DToken _ _ e _ | DFrag _ e _ => acyclic_atoms tbl (expand_fuel tbl) [] (lexpr_atoms e)
  | _ => true
  end.

Definition wf_reachable_acyclic (s : spec) : bool :=
  forallb (rule_acyclic (n_names (canon s))) (all_decls s).

(* Clause 12 : both arguments of @list are a plain name or literal
   (parser_reference.md: list = '@list' '(' term ',' term ')' allows @error
   and a nested @list syntactically; lox rejects them). *)
Fixpoint pterm_lists_ok (t : pterm) : bool :=
  match t with
  | PName _ | PAlias _ | PError => true
  | PCard _ c => pterm_lists_ok c
  | PList e sp _ => pterm_lists_ok e && pterm_lists_ok sp && pterm_simple e && pterm_simple sp
  end.

Definition decl_lists_ok (d : decl) : bool :=
  match d with
  | DRule _ _ _ prods => forallb (forallb pterm_lists_ok) prods
  | _ => true
  end.

Definition wf_lists (s : spec) : bool := forallb decl_lists_ok (all_decls s).

(* ------------------------------------------------------------------ *)

Definition well_formed (s : spec) : bool :=
  wf_unique s && wf_lexical_names s && wf_rule_names s && wf_refs s &&
  wf_aliases s && wf_modes s && wf_start s && wf_token_actions s &&
  wf_frag_actions s && wf_literals s && wf_ranges s && wf_macros_acyclic s &&
  wf_lists s.

(* What lox enforces: everything but wf_rule_names (a rule named a__b is
   accepted although parser_reference.md forbids consecutive underscores). *)
Definition well_formed_weak (s : spec) : bool :=
  wf_unique s && wf_lexical_names s && wf_refs s &&
  wf_aliases s && wf_modes s && wf_start s && wf_token_actions s &&
  wf_frag_actions s && wf_literals s && wf_ranges s && wf_macros_acyclic s &&
  wf_lists s.
