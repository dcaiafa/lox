(* C12: ClassModel.unescape does not panic on the token languages of
   EscapeModel.v.  For a literal, unescape_loop and the automaton [step] run
   side by side ([lit_loop]); a CLASS_CHAR is one escape or backslash-free
   text, by cases. *)
From Coq Require Import List ZArith Bool Lia.
From Lox Require Import Rang3.ClassModel Gen.EscapeModel Gen.EscapeRune.
Import ListNotations.
Local Open Scope Z_scope.

Local Notation step := (esc_step lit_simple lit_plain).

(* a [match] on a Z numeral is a tree of matches on the bits *)
Lemma match92 {A} (q : Z) (x y : A) : q <> 92 ->
  match q with 92 => x | _ => y end = y.
Proof.
  intros H. destruct q as [|p|p]; try reflexivity;
  do 7 (try (destruct p as [p|p|]; try reflexivity)).
  exfalso; apply H; reflexivity.
Qed.

Lemma match39 {A} (q : Z) (x y : A) : q <> 39 ->
  match q with 39 => x | _ => y end = y.
Proof.
  intros H. destruct q as [|p|p]; try reflexivity;
  do 7 (try (destruct p as [p|p|]; try reflexivity)).
  exfalso; apply H; reflexivity.
Qed.

Lemma loop_step_ne : forall f b rest acc, b <> 92 ->
  unescape_loop (S f) (b :: rest) acc = unescape_loop f rest ((false, b) :: acc).
Proof. intros f b rest acc H. cbn [unescape_loop]. apply match92. exact H. Qed.

(* the byte after a backslash: a one-letter escape and its rune; x, u, U with
   the number of hex digits and whether the value is written with WriteRune *)
Inductive esc_kind := KSimple (v : Z) | KHex (n : nat) (as_rune : bool) | KBad.

Definition esc_kind_of (c : Z) : esc_kind :=
  if c =? 110 then KSimple 10 else if c =? 114 then KSimple 13 else
  if c =? 116 then KSimple 9 else if c =? 39 then KSimple 39 else
  if c =? 92 then KSimple 92 else if c =? 45 then KSimple 45 else
  if c =? 120 then KHex 2 false else if c =? 117 then KHex 4 true else
  if c =? 85 then KHex 8 true else KBad.

Lemma loop_bs : forall f c r acc,
  unescape_loop (S f) (92 :: c :: r) acc =
  match esc_kind_of c with
  | KSimple v => unescape_loop f r ((true, v) :: acc)
  | KHex n fl =>
    match hex_to_rune n r 0 with
    | Some (v, r') => unescape_loop f r' ((fl, v) :: acc)
    | None => UPanic
    end
  | KBad => UPanic
  end.
Proof.
  intros f c r acc.
  destruct c as [|p|p]; try reflexivity;
  do 7 (try (destruct p as [p|p|]; try reflexivity)).
Qed.

(* [c] is [k], and both sides are evaluated, or [c =? k] is false on both *)
Ltac byte_is c k := destruct (Z.eqb_spec c k) as [->|]; [reflexivity|].

Definition digits (n : nat) : est := match n with O => ENorm | S _ => EHex n end.

(* the Literal mode after a backslash: its one-letter escapes are those of
   unescape without the dash *)
Lemma lit_step_bs c :
  step EBs c =
  match esc_kind_of c with
  | KSimple _ => if c =? 45 then EBad else ENorm
  | KHex n _ => digits n
  | KBad => EBad
  end.
Proof.
  unfold esc_step, lit_simple, esc_kind_of.
  byte_is c 110. byte_is c 114. byte_is c 116. byte_is c 39. byte_is c 92.
  byte_is c 45. byte_is c 120. byte_is c 117. byte_is c 85. reflexivity.
Qed.

(* the ClassChar mode after a backslash: those of unescape without the quote *)
Lemma cc_bs c r :
  is_class_char (92 :: c :: r) =
  match esc_kind_of c with
  | KSimple _ => if c =? 39 then false else match r with [] => true | _ => false end
  | KHex n _ => Nat.eqb (length r) n && forallb is_hex r
  | KBad => false
  end.
Proof.
  unfold is_class_char, cc_simple, esc_kind_of.
  byte_is c 110. byte_is c 114. byte_is c 116. byte_is c 39. byte_is c 92.
  byte_is c 45. byte_is c 120. byte_is c 117. byte_is c 85. reflexivity.
Qed.

Lemma hex_len : forall n l a v l',
  hex_to_rune n l a = Some (v, l') -> length l = (n + length l')%nat.
Proof.
  induction n; intros l a v l' H; cbn [hex_to_rune] in H.
  - injection H; intros; subst; reflexivity.
  - destruct l as [|b l]; [discriminate|].
    destruct (hex_val b); [|discriminate].
    apply IHn in H. cbn [length]. lia.
Qed.

Lemma hex_fold : forall ds acc, forallb is_hex ds = true ->
  hex_to_rune (length ds) ds acc =
  Some (fold_left (fun a d => a * 16 + hex_digit d) ds acc, []).
Proof.
  induction ds as [|d ds IH]; intros acc H.
  - reflexivity.
  - cbn [forallb] in H. apply andb_true_iff in H. destruct H as [Hd Hds].
    cbn [length hex_to_rune fold_left].
    unfold is_hex in Hd. unfold hex_digit at 2.
    destruct (hex_val d) as [v|]; [|discriminate].
    apply IH; exact Hds.
Qed.

Lemma fold_bad : forall l, fold_left step l EBad = EBad.
Proof. induction l; simpl; auto. Qed.

Lemma hex_run : forall n l a,
  fold_left step l (digits n) = ENorm ->
  exists v l', hex_to_rune n l a = Some (v, l') /\
               fold_left step l' ENorm = ENorm /\
               (length l' <= length l)%nat.
Proof.
  induction n as [|k IH]; intros l a H.
  - exists a, l. auto.
  - destruct l as [|b l]; [discriminate|].
    cbn [digits fold_left esc_step] in H. unfold is_hex in H. cbn [hex_to_rune].
    destruct (hex_val b) as [hv|]; [|rewrite fold_bad in H; discriminate].
    destruct (IH l (a * 16 + hv) H) as (v & l' & E & F & L).
    exists v, l'. cbn [length]. auto.
Qed.

Lemma lit_loop : forall fuel l acc, (length l < fuel)%nat ->
  fold_left step l ENorm = ENorm ->
  exists items, unescape_loop fuel l acc = UOk items.
Proof.
  induction fuel; intros l acc Hl H0; [lia|].
  destruct l as [|b rest]; [eexists; reflexivity|].
  cbn [fold_left] in H0. cbn [length] in Hl.
  destruct (Z.eq_dec b 92) as [->|nb].
  - change (step ENorm 92) with EBs in H0.
    destruct rest as [|c r]; [discriminate|].
    cbn [fold_left] in H0. cbn [length] in Hl.
    rewrite lit_step_bs in H0. rewrite loop_bs.
    destruct (esc_kind_of c) as [v|n fl|].
    + destruct (c =? 45); [rewrite fold_bad in H0; discriminate|].
      apply IHfuel; [lia|exact H0].
    + destruct (hex_run _ _ 0 H0) as (v & l' & E & F & L).
      rewrite E. apply IHfuel; [lia|exact F].
    + rewrite fold_bad in H0. discriminate.
  - rewrite loop_step_ne by exact nb.
    cbn [esc_step] in H0. rewrite (proj2 (Z.eqb_neq b 92) nb) in H0.
    destruct (lit_plain b).
    + apply IHfuel; [lia|exact H0].
    + rewrite fold_bad in H0. discriminate.
Qed.

Lemma unescape_literal_ok : forall l, is_literal_body l = true -> exists items, unescape l = UOk items.
Proof.
  intros l H. unfold is_literal_body in H.
  destruct (fold_left step l ENorm) eqn:E; try discriminate.
  unfold unescape. apply lit_loop; [lia|exact E].
Qed.

Lemma fix_literal_cons : forall a r, r <> [] ->
  fix_literal (a :: r) = unescape_bytes (removelast r).
Proof. intros a r H. destruct r; [contradiction|reflexivity]. Qed.

Lemma fix_literal_ok : forall t, is_literal_token t = true -> exists bs, fix_literal t = Some bs.
Proof.
  intros t H. destruct t as [|a r]; [discriminate|].
  unfold is_literal_token in H.
  destruct (Z.eq_dec a 39) as [->|na];
    [|rewrite match39 in H by exact na; discriminate].
  destruct (rev r) as [|q b] eqn:E; [discriminate|].
  destruct (Z.eq_dec q 39) as [->|nq];
    [|rewrite match39 in H by exact nq; discriminate].
  assert (R : r = rev b ++ [39]).
  { rewrite <- (rev_involutive r), E. reflexivity. }
  subst r.
  rewrite fix_literal_cons by (intro X; apply app_eq_nil in X; destruct X; discriminate).
  rewrite removelast_last.
  destruct (unescape_literal_ok _ H) as [items Hi].
  unfold unescape_bytes. rewrite Hi. eexists; reflexivity.
Qed.

Lemma plain_loop : forall l fuel acc, (length l < fuel)%nat ->
  (forall b, In b l -> b <> 92) ->
  unescape_loop fuel l acc = UOk (rev acc ++ map (fun b => (false, b)) l).
Proof.
  induction l as [|b l IH]; intros fuel acc Hl H;
    (destruct fuel as [|f]; [cbn [length] in Hl; lia|]).
  - cbn [map]. rewrite app_nil_r. reflexivity.
  - rewrite loop_step_ne by (apply H; left; reflexivity).
    cbn [length] in Hl.
    rewrite IH; [|lia|intros x Hx; apply H; right; exact Hx].
    cbn [rev map]. rewrite <- app_assoc. reflexivity.
Qed.

Lemma unescape_plain_identity : forall l, (forall b, In b l -> b <> 92) -> unescape l = UOk (map (fun b => (false, b)) l).
Proof.
  intros l H. unfold unescape. rewrite plain_loop; [reflexivity|lia|exact H].
Qed.

Lemma unescape_class_char_ok : forall l, is_class_char l = true -> exists items, unescape l = UOk items /\ items <> [].
Proof.
  intros l H. destruct l as [|b rest]; [discriminate|].
  destruct (Z.eq_dec b 92) as [->|nb].
  - destruct rest as [|c r].
    { eexists; split; [reflexivity|discriminate]. }
    rewrite cc_bs in H. unfold unescape. cbn [length]. rewrite loop_bs.
    destruct (esc_kind_of c) as [v|n fl|]; [| |discriminate].
    + destruct (c =? 39); [discriminate|]. destruct r; [|discriminate].
      eexists; split; [reflexivity|discriminate].
    + apply andb_true_iff in H. destruct H as [Hn Hh].
      apply Nat.eqb_eq in Hn. subst n. rewrite hex_fold by exact Hh.
      eexists; split; [reflexivity|discriminate].
  - unfold is_class_char in H. rewrite match92 in H by exact nb.
    rewrite unescape_plain_identity.
    + eexists; split; [reflexivity|]. cbn [map]. discriminate.
    + intros x Hx. rewrite forallb_forall in H. specialize (H x Hx).
      apply negb_true_iff in H. apply Z.eqb_neq in H. exact H.
Qed.

Lemma loop_len : forall fuel l acc items,
  unescape_loop fuel l acc = UOk items ->
  (length items <= length l + length acc)%nat.
Proof.
  induction fuel; intros l acc items H; [discriminate|].
  destruct l as [|b rest].
  { injection H as H; subst items. rewrite rev_length. lia. }
  destruct (Z.eq_dec b 92) as [->|nb].
  - destruct rest as [|c r].
    { injection H as H; subst items. rewrite ?app_length, ?rev_length; cbn [length]; lia. }
    rewrite loop_bs in H.
    destruct (esc_kind_of c) as [v|n fl|]; [| |discriminate].
    + apply IHfuel in H. cbn [length] in *; lia.
    + destruct (hex_to_rune n r 0) as [[v r']|] eqn:E; [|discriminate].
      apply hex_len in E. apply IHfuel in H. cbn [length] in *; lia.
  - rewrite loop_step_ne in H by exact nb.
    apply IHfuel in H. cbn [length] in *; lia.
Qed.

Lemma unescape_fuel_enough : forall l items, unescape l = UOk items -> (length items <= length l)%nat.
Proof.
  intros l items H. unfold unescape in H. apply loop_len in H. cbn [length] in H. lia.
Qed.

Lemma unescape_panic_witnesses : unescape [92; 113] = UPanic /\ unescape [92; 120; 52] = UPanic /\ unescape [92; 117; 48; 48; 52; 103] = UPanic /\ is_literal_body [92; 113] = false /\ is_class_char [92; 120; 52] = false.
Proof. vm_compute. repeat split. Qed.

Example literal_body_nonvacuous : is_literal_body [97; 92; 110; 92; 120; 52; 49; 92; 117; 50; 48; 65; 67] = true /\ is_class_char [92; 85; 48; 48; 48; 49; 70; 54; 48; 48] = true /\ is_class_char [92] = true /\ is_literal_token [39; 92; 39; 39] = true.
Proof. vm_compute. repeat split. Qed.

Print Assumptions unescape_literal_ok.
Print Assumptions fix_literal_ok.
Print Assumptions unescape_class_char_ok.
Print Assumptions unescape_plain_identity.
Print Assumptions unescape_fuel_enough.
