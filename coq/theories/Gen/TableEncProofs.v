(* Theorems about the row-compressed table encoder (TableEnc.v, the model of
   internal/codegen/table.go) and the two readers of its output: Tables.find
   (the generated _Find) and LexAuto.decode_row (the lexer's row layout). *)
(* ZifyBool, ZifyNat: [lia] is used on goals with [<?] and [Z.of_nat]. *)
From Coq Require Import List ZArith Lia Bool Sorted ZifyBool ZifyNat.
From Lox Require Import Parse.Tables Lex.LexAuto Gen.TableEnc.
Import ListNotations.
Local Open Scope Z_scope.

Definition in_range (x : Z) : Prop := - 2 ^ 31 <= x < 2 ^ 32.

Lemma uvarint_prefix_free : forall f u v s1 s2,
  uvarint f u ++ s1 = uvarint f v ++ s2 -> u = v /\ s1 = s2.
Proof.
  induction f as [|f IH]; intros u v s1 s2 H; cbn [uvarint] in H.
  - cbn [app] in H. inversion H. auto.
  - destruct (u <? 128) eqn:Hu; destruct (v <? 128) eqn:Hv; cbn [app] in H;
      inversion H as [[Hh Ht]].
    + auto.
    + exfalso. Z.div_mod_to_equations. lia.
    + exfalso. Z.div_mod_to_equations. lia.
    + apply IH in Ht. destruct Ht as [Hq Hs]. split; [|exact Hs].
      Z.div_mod_to_equations. lia.
Qed.

Lemma zigzag_inj : forall x y, zigzag x = zigzag y -> x = y.
Proof.
  intros x y. unfold zigzag.
  destruct (x <? 0) eqn:Hx; destruct (y <? 0) eqn:Hy; lia.
Qed.

Lemma zigzag_nonneg : forall x, 0 <= zigzag x.
Proof. intros x. unfold zigzag. destruct (x <? 0) eqn:Hx; lia. Qed.

(* zigzag is (x << 1) xor (x >> 63), the formula AppendVarint computes on
   two's-complement 64-bit words *)
Lemma zigzag_bits : forall x, - 2 ^ 63 <= x < 2 ^ 63 ->
  zigzag x = Z.lxor (Z.shiftl x 1) (Z.shiftr x 63).
Proof.
  intros x Hx. unfold zigzag.
  rewrite Z.shiftl_mul_pow2, Z.shiftr_div_pow2 by lia.
  change (2 ^ 63) with 9223372036854775808 in *. change (2 ^ 1) with 2.
  destruct (x <? 0) eqn:E.
  - replace (x / 9223372036854775808) with (-1) by (Z.div_mod_to_equations; lia).
    rewrite Z.lxor_m1_r. unfold Z.lnot. lia.
  - replace (x / 9223372036854775808) with 0 by (Z.div_mod_to_equations; lia).
    rewrite Z.lxor_0_r. lia.
Qed.

Lemma varint_prefix_free : forall x y s1 s2,
  varint x ++ s1 = varint y ++ s2 -> x = y /\ s1 = s2.
Proof.
  intros x y s1 s2 H. unfold varint in H.
  apply uvarint_prefix_free in H. destruct H as [Hz Hs].
  split; [apply zigzag_inj; exact Hz | exact Hs].
Qed.

Lemma uvarint_nonempty : forall f u, uvarint f u <> [].
Proof.
  intros f u. destruct f as [|f]; cbn [uvarint]; [discriminate|].
  destruct (u <? 128); discriminate.
Qed.

(* [code_shape]: bytes, all but the last with the high bit set; [cap f] is the
   first value that [uvarint f] cannot code *)
Fixpoint cap (f : nat) : Z := match f with O => 128 | S f' => 128 * cap f' end.

Fixpoint code_shape (l : list Z) : Prop :=
  match l with
  | [] => False
  | [b] => 0 <= b < 128
  | b :: rest => 128 <= b < 256 /\ code_shape rest
  end.

Lemma cap_div : forall f u, 0 <= u < cap (S f) -> 0 <= u / 128 < cap f.
Proof. intros f u Hu. cbn [cap] in Hu. Z.div_mod_to_equations. lia. Qed.

Lemma uvarint_fuel : forall f u, 0 <= u < cap f -> forall g, uvarint (g + f) u = uvarint f u.
Proof.
  induction f as [|f IH]; intros u Hu g.
  - cbn [cap] in Hu. destruct g as [|g]; [reflexivity|]. cbn [Nat.add uvarint].
    destruct (u <? 128) eqn:E; [reflexivity | lia].
  - rewrite Nat.add_succ_r. cbn [uvarint].
    destruct (u <? 128) eqn:E; [reflexivity|].
    rewrite IH by (apply cap_div; exact Hu). reflexivity.
Qed.

Lemma uvarint_shape : forall f u, 0 <= u < cap f ->
  code_shape (uvarint f u) /\ (length (uvarint f u) <= S f)%nat.
Proof.
  induction f as [|f IH]; intros u Hu; cbn [uvarint].
  - cbn [cap] in Hu. cbn. lia.
  - destruct (u <? 128) eqn:Hlt.
    + cbn. lia.
    + destruct (IH _ (cap_div _ _ Hu)) as [Hs Hl].
      split.
      * cbn [code_shape]. destruct (uvarint f (u / 128)) eqn:E.
        { exfalso. exact (uvarint_nonempty _ _ E). }
        { split; [lia | exact Hs]. }
      * cbn [length]. lia.
Qed.

(* an int32 / uint32 entry is coded on at most 5 bytes (binary.MaxVarintLen32),
   each a byte, the last one the only one below 128 *)
Theorem varint_shape : forall x, in_range x ->
  code_shape (varint x) /\ (length (varint x) <= 5)%nat.
Proof.
  intros x Hx. unfold in_range in Hx. unfold varint.
  assert (Hz : 0 <= zigzag x < cap 4).
  { unfold zigzag. cbn [cap]. destruct (x <? 0) eqn:E; lia. }
  change 9%nat with (5 + 4)%nat. rewrite uvarint_fuel by exact Hz.
  apply uvarint_shape. exact Hz.
Qed.

Theorem row_key_injective : forall r1 r2, row_key r1 = row_key r2 -> r1 = r2.
Proof.
  induction r1 as [|x r1 IH]; intros r2 H; destruct r2 as [|y r2]; cbn [row_key] in H.
  - reflexivity.
  - exfalso. destruct (varint y) eqn:E; [exact (uvarint_nonempty _ _ E) | discriminate].
  - exfalso. destruct (varint x) eqn:E; [exact (uvarint_nonempty _ _ E) | discriminate].
  - apply varint_prefix_free in H. destruct H as [Hxy Hr].
    subst y. f_equal. apply IH. exact Hr.
Qed.

(* [row_key_injective] for 32-bit entries (the range in which [varint] is the
   Go function); the range hypotheses are not needed by the proof *)
Theorem row_key_injective_range : forall r1 r2,
  Forall in_range r1 -> Forall in_range r2 -> row_key r1 = row_key r2 -> r1 = r2.
Proof. intros r1 r2 _ _. apply row_key_injective. Qed.

Fixpoint seg (a : list Z) (i : Z) (l : list Z) : Prop :=
  match l with
  | [] => True
  | x :: l' => nthz a i = Some x /\ seg a (i + 1) l'
  end.

Lemma nthz_of_nat : forall a n, nthz a (Z.of_nat n) = nth_error a n.
Proof.
  intros a n. unfold nthz. destruct (Z.of_nat n <? 0) eqn:E; [lia|].
  rewrite Nat2Z.id. reflexivity.
Qed.

Lemma nthz_bound : forall a i x, nthz a i = Some x -> 0 <= i < Z.of_nat (length a).
Proof.
  intros a i x H. unfold nthz in H. destruct (i <? 0) eqn:E; [discriminate|].
  assert (Hn : nth_error a (Z.to_nat i) <> None) by congruence.
  apply nth_error_Some in Hn. lia.
Qed.

Lemma nthz_app_l : forall a b i x, nthz a i = Some x -> nthz (a ++ b) i = Some x.
Proof.
  intros a b i x H. pose proof (nthz_bound _ _ _ H) as Hb.
  unfold nthz in *. destruct (i <? 0) eqn:E; [discriminate|].
  rewrite nth_error_app1 by lia. exact H.
Qed.

Lemma nthz_app_r : forall p a i, 0 <= i -> nthz (p ++ a) (i + Z.of_nat (length p)) = nthz a i.
Proof.
  intros p a i Hi. unfold nthz.
  destruct (i <? 0) eqn:E; [lia|].
  destruct (i + Z.of_nat (length p) <? 0) eqn:E2; [lia|].
  rewrite nth_error_app2 by lia. f_equal. lia.
Qed.

Lemma seg_app_l : forall l a b i, seg a i l -> seg (a ++ b) i l.
Proof.
  induction l as [|x l IH]; intros a b i H; cbn [seg] in *; [exact I|].
  destruct H as [H1 H2]. split; [apply nthz_app_l; exact H1 | apply IH; exact H2].
Qed.

Lemma seg_shift : forall l p a i, seg a i l -> seg (p ++ a) (i + Z.of_nat (length p)) l.
Proof.
  induction l as [|x l IH]; intros p a i H; cbn [seg] in *; [exact I|].
  destruct H as [H1 H2]. split.
  - rewrite nthz_app_r by (apply nthz_bound in H1; lia). exact H1.
  - replace (i + Z.of_nat (length p) + 1) with (i + 1 + Z.of_nat (length p)) by lia.
    apply IH; exact H2.
Qed.

Lemma seg_refl_at : forall l pre, seg (pre ++ l) (Z.of_nat (length pre)) l.
Proof.
  induction l as [|x l IH]; intros pre; cbn [seg]; [exact I|].
  split.
  - rewrite nthz_of_nat. rewrite nth_error_app2 by lia.
    rewrite Nat.sub_diag. reflexivity.
  - replace (pre ++ x :: l) with ((pre ++ [x]) ++ l) by (rewrite <- app_assoc; reflexivity).
    replace (Z.of_nat (length pre) + 1) with (Z.of_nat (length (pre ++ [x])))
      by (rewrite app_length; cbn [length]; lia).
    apply IH.
Qed.

Lemma seg_app : forall l1 l2 a i,
  seg a i (l1 ++ l2) <-> seg a i l1 /\ seg a (i + Z.of_nat (length l1)) l2.
Proof.
  induction l1 as [|x l1 IH]; intros l2 a i; cbn [app seg length].
  - replace (i + Z.of_nat 0) with i by lia. tauto.
  - rewrite IH.
    replace (i + 1 + Z.of_nat (length l1)) with (i + Z.of_nat (S (length l1))) by lia.
    tauto.
Qed.

Lemma seg_inj : forall l1 l2 a i,
  seg a i l1 -> seg a i l2 -> length l1 = length l2 -> l1 = l2.
Proof.
  induction l1 as [|x l1 IH]; intros l2 a i H1 H2 Hl; destruct l2 as [|y l2];
    cbn [length] in Hl; try discriminate; [reflexivity|].
  cbn [seg] in H1, H2. destruct H1 as [Hx H1]. destruct H2 as [Hy H2].
  f_equal; [congruence|]. apply (IH l2 a (i + 1)); [exact H1 | exact H2 | lia].
Qed.

Lemma seg_bound : forall l x a i,
  seg a i (x :: l) -> 0 <= i /\ i + Z.of_nat (length (x :: l)) <= Z.of_nat (length a).
Proof.
  induction l as [|y l IH]; intros x a i H.
  - cbn [seg] in H. destruct H as [H _]. apply nthz_bound in H. cbn [length]. lia.
  - change (seg a i (x :: y :: l)) with (nthz a i = Some x /\ seg a (i + 1) (y :: l)) in H.
    destruct H as [H1 H2]. apply nthz_bound in H1. apply IH in H2.
    cbn [length] in *. lia.
Qed.

Lemma seg_take : forall l a i, seg a i l -> take (length l) a i = Some l.
Proof.
  induction l as [|x l IH]; intros a i H; cbn [length take]; [reflexivity|].
  cbn [seg] in H. destruct H as [H1 H2]. rewrite H1, (IH _ _ H2). reflexivity.
Qed.

(* Parse/Tables.v and Lex/LexRuntime.v each define [nthz], with the same body;
   the [change]s below identify them. *)
Lemma seg_take_pairs : forall ps a i,
  seg a i (flat_pairs ps) -> take_pairs (length ps) a i = Some ps.
Proof.
  induction ps as [|[k v] ps IH]; intros a i H; cbn [length take_pairs]; [reflexivity|].
  change LexRuntime.nthz with nthz.
  cbn [flat_pairs seg] in H. destruct H as [H1 [H2 H3]].
  replace (i + 1 + 1) with (i + 2) in H3 by lia.
  rewrite H1, H2, (IH _ _ H3). reflexivity.
Qed.

Lemma seg_take_triples : forall ts a i,
  seg a i (flat_triples ts) -> take_triples (length ts) a i = Some ts.
Proof.
  induction ts as [|[[lo hi] tg] ts IH]; intros a i H; cbn [length take_triples]; [reflexivity|].
  change LexRuntime.nthz with nthz.
  cbn [flat_triples seg] in H. destruct H as [H1 [H2 [H3 H4]]].
  replace (i + 1 + 1) with (i + 2) in * by lia.
  replace (i + 2 + 1) with (i + 3) in H4 by lia.
  rewrite H1, H2, H3, (IH _ _ H4). reflexivity.
Qed.

Lemma flat_pairs_length : forall ps, length (flat_pairs ps) = (2 * length ps)%nat.
Proof. induction ps as [|[k v] ps IH]; cbn [flat_pairs length]; lia. Qed.

Lemma flat_triples_length : forall ts, length (flat_triples ts) = (3 * length ts)%nat.
Proof. induction ts as [|[[a b] c] ts IH]; cbn [flat_triples length]; lia. Qed.

Definition row_at (a : list Z) (off : Z) (row : list Z) : Prop :=
  seg a off (Z.of_nat (length row) :: row).

Lemma row_at_inj : forall a off r1 r2, row_at a off r1 -> row_at a off r2 -> r1 = r2.
Proof.
  intros a off r1 r2 H1 H2. unfold row_at in *. cbn [seg] in H1, H2.
  destruct H1 as [Hn1 H1]. destruct H2 as [Hn2 H2].
  apply (seg_inj r1 r2 a (off + 1)); [exact H1 | exact H2 |].
  rewrite Hn1 in Hn2. inversion Hn2. lia.
Qed.

Lemma row_at_layout : forall a off row, row_at a off row ->
  nthz a off = Some (Z.of_nat (length row)) /\ seg a (off + 1) row /\
  0 <= off /\ off + 1 + Z.of_nat (length row) <= Z.of_nat (length a).
Proof.
  intros a off row H. unfold row_at in H. pose proof (seg_bound _ _ _ _ H) as Hb.
  cbn [seg] in H. destruct H as [H1 H2]. cbn [length] in Hb.
  repeat split; try assumption; lia.
Qed.

Lemma lz_eqb_eq : forall a b, lz_eqb a b = true <-> a = b.
Proof.
  induction a as [|x a IH]; intros b; destruct b as [|y b]; cbn [lz_eqb];
    try (split; intros H; [discriminate | congruence]); [tauto|].
  rewrite andb_true_iff, Z.eqb_eq, IH. split; [intros [-> ->]; reflexivity | intros H; inversion H; auto].
Qed.

(* [done] are the rows added so far.  Every one of them is stored where the
   index and the row map say; the index holds nothing else; and every key of the
   row map is the key of a row stored at its offset, which with
   [row_key_injective] is what makes sharing a stored row sound. *)
Record inv (t : tstate) (done : list (nat * list Z)) : Prop := {
  inv_max : -1 <= t_max t;
  inv_done : forall i row, In (i, row) done ->
    exists off, index_get (t_index t) i = Some off /\ row_at (t_arr t) off row /\
                rowmap_get (t_rowmap t) (row_key row) = Some off;
  inv_idx : forall i off, index_get (t_index t) i = Some off ->
    Z.of_nat i <= t_max t /\ exists row, In (i, row) done;
  inv_map : forall key off, rowmap_get (t_rowmap t) key = Some off ->
    exists row, key = row_key row /\ row_at (t_arr t) off row;
}.

Lemma inv_empty : inv empty_table [].
Proof.
  constructor; cbn.
  - lia.
  - intros i row [].
  - intros i off H. discriminate.
  - intros key off H. discriminate.
Qed.

Lemma inv_ext : forall t d1 d2, (forall p, In p d1 <-> In p d2) -> inv t d1 -> inv t d2.
Proof.
  intros t d1 d2 Hext H. constructor.
  - exact (inv_max _ _ H).
  - intros i row Hin. apply (inv_done _ _ H). apply Hext. exact Hin.
  - intros i off Hg. destruct (inv_idx _ _ H _ _ Hg) as [Hle [row Hin]].
    split; [exact Hle|]. exists row. apply Hext. exact Hin.
  - exact (inv_map _ _ H).
Qed.

(* the storage grows on the right, by nothing when the row is shared *)
Lemma add_row_shape : forall t done i row t',
  inv t done -> add_row t i row = Some t' ->
  t_max t < Z.of_nat i /\ t_max t' = Z.of_nat i /\
  exists off ext,
    t_index t' = (i, off) :: t_index t /\ t_arr t' = t_arr t ++ ext /\
    row_at (t_arr t') off row /\
    forall key o, rowmap_get (t_rowmap t') key = Some o <->
                  rowmap_get (t_rowmap t) key = Some o \/ (key = row_key row /\ o = off).
Proof.
  intros t done i row t' Hinv Hadd. unfold add_row in Hadd.
  destruct (Z.of_nat i <=? t_max t) eqn:Hle; [discriminate|].
  split; [lia|].
  destruct (rowmap_get (t_rowmap t) (row_key row)) as [ex|] eqn:Hget;
    injection Hadd as <-; cbn [t_max t_rowmap t_index t_arr]; (split; [reflexivity|]).
  - exists ex, []. rewrite app_nil_r.
    split; [reflexivity|]. split; [reflexivity|]. split.
    + destruct (inv_map _ _ Hinv _ _ Hget) as [row0 [Hk Hat]].
      apply row_key_injective in Hk. now subst row0.
    + intros key o. split; [now left | intros [Hg | [-> ->]]; assumption].
  - rewrite Zlength_correct. exists (Z.of_nat (length (t_arr t))), (Zlength row :: row).
    split; [reflexivity|]. split; [reflexivity|]. split.
    + rewrite Zlength_correct. apply seg_refl_at.
    + intros key o. cbn [rowmap_get].
      destruct (lz_eqb (row_key row) key) eqn:Ek.
      * apply lz_eqb_eq in Ek. subst key. split; [intros [= <-]; now right|].
        intros [Hg | [_ ->]]; congruence.
      * split; [now left|]. intros [Hg | [-> _]]; [exact Hg|].
        rewrite (proj2 (lz_eqb_eq _ _) eq_refl) in Ek. discriminate.
Qed.

Lemma add_row_inv : forall t done i row t',
  inv t done -> add_row t i row = Some t' ->
  inv t' ((i, row) :: done).
Proof.
  intros t done i row t' Hinv Hadd.
  destruct (add_row_shape _ _ _ _ _ Hinv Hadd)
    as (Hgt & Hmax' & off & ext & Hidx & Harr & Hrow & Hmap).
  pose proof (inv_max _ _ Hinv) as Hmax.
  constructor; rewrite ?Hmax', ?Hidx, ?Harr; cbn [index_get].
  - lia.
  - intros j r [[= <- <-] | Hin].
    + exists off. rewrite Nat.eqb_refl, <- Harr.
      split; [reflexivity|]. split; [exact Hrow | apply Hmap; now right].
    + destruct (inv_done _ _ Hinv _ _ Hin) as [o [Hg [Hat Hm]]]. exists o.
      destruct (Nat.eqb_spec i j) as [<- | _]; [apply (inv_idx _ _ Hinv) in Hg; lia|].
      split; [exact Hg|]. split; [apply seg_app_l; exact Hat | apply Hmap; now left].
  - intros j o. destruct (Nat.eqb_spec i j) as [<- | _]; intros Hg.
    + split; [lia|]. exists row. now left.
    + destruct (inv_idx _ _ Hinv _ _ Hg) as [Hle [r Hin]].
      split; [lia|]. exists r. now right.
  - intros key o Hg. apply Hmap in Hg. destruct Hg as [Hg | [-> ->]].
    + destruct (inv_map _ _ Hinv _ _ Hg) as [r [Hk Hat]].
      exists r. split; [exact Hk | apply seg_app_l; exact Hat].
    + exists row. split; [reflexivity | rewrite <- Harr; exact Hrow].
Qed.

Lemma add_rows_inv : forall rows t done t',
  inv t done -> add_rows t rows = Some t' -> inv t' (rev rows ++ done).
Proof.
  induction rows as [|[i row] rest IH]; intros t done t' Hinv H; cbn [add_rows rev] in *.
  - inversion H; subst t'. exact Hinv.
  - destruct (add_row t i row) as [t1|] eqn:E; [|discriminate].
    pose proof (add_row_inv _ _ _ _ _ Hinv E) as Hinv1.
    rewrite <- app_assoc. cbn [app]. apply (IH t1); assumption.
Qed.

Lemma build_inv : forall miss rows arr, build_with miss rows = Some arr ->
  exists t, inv t rows /\ arr = table_array_with miss t.
Proof.
  intros miss rows arr H. unfold build_with in H.
  destruct (add_rows empty_table rows) as [t|] eqn:E; [|discriminate].
  inversion H; subst arr. exists t. split; [|reflexivity].
  apply (inv_ext t (rev rows ++ [])).
  - intros p. rewrite app_nil_r. symmetry. apply in_rev.
  - apply (add_rows_inv rows empty_table); [exact inv_empty | exact E].
Qed.

(* entry i of the index vector, as [table_array_with] computes it *)
Definition idx_entry (miss : Z) (t : tstate) (i : nat) : Z :=
  match index_get (t_index t) i with
  | Some x => x + (t_max t + 1)
  | None => miss
  end.

Lemma array_index : forall miss t i, Z.of_nat i <= t_max t ->
  nthz (table_array_with miss t) (Z.of_nat i) = Some (idx_entry miss t i).
Proof.
  intros miss t i Hi. unfold table_array_with. rewrite nthz_of_nat.
  rewrite nth_error_app1 by (rewrite map_length, seq_length; lia).
  rewrite nth_error_map, (nth_error_nth' _ 0%nat) by (rewrite seq_length; lia).
  rewrite seq_nth by lia. reflexivity.
Qed.

Lemma array_row : forall miss t off row, -1 <= t_max t ->
  row_at (t_arr t) off row -> row_at (table_array_with miss t) (off + (t_max t + 1)) row.
Proof.
  intros miss t off row Hmax H. unfold row_at, table_array_with in *.
  set (idx := map _ _).
  replace (t_max t + 1) with (Z.of_nat (length idx))
    by (unfold idx; rewrite map_length, seq_length; lia).
  apply seg_shift; assumption.
Qed.

Lemma array_length : forall miss t, -1 <= t_max t ->
  Z.of_nat (length (table_array_with miss t)) = t_max t + 1 + Z.of_nat (length (t_arr t)).
Proof.
  intros miss t Hmax. unfold table_array_with.
  rewrite app_length, map_length, seq_length. lia.
Qed.

Lemma read_row_at : forall arr i off row,
  nthz arr i = Some off -> row_at arr off row -> read_row arr i = Some row.
Proof.
  intros arr i off row Hi Hat. destruct (row_at_layout _ _ _ Hat) as [Hn [Hs _]].
  unfold read_row. rewrite Hi, Hn.
  destruct (Z.of_nat (length row) <? 0) eqn:E; [lia|].
  rewrite Nat2Z.id. apply seg_take. exact Hs.
Qed.

Lemma row_stored : forall miss rows arr i row,
  build_with miss rows = Some arr -> In (i, row) rows ->
  exists off, nthz arr (Z.of_nat i) = Some off /\ row_at arr off row /\
    (forall m row', In (m, row') rows -> Z.of_nat m < off) /\
    (forall i', In (i', row) rows -> nthz arr (Z.of_nat i') = Some off).
Proof.
  intros miss rows arr i row H Hin. destruct (build_inv _ _ _ H) as [t [Hinv ->]].
  pose proof (inv_max _ _ Hinv) as Hmax.
  assert (Hidx : forall j o, index_get (t_index t) j = Some o ->
            Z.of_nat j <= t_max t /\
            nthz (table_array_with miss t) (Z.of_nat j) = Some (o + (t_max t + 1))).
  { intros j o Hg. destruct (inv_idx _ _ Hinv _ _ Hg) as [Hle _]. split; [exact Hle|].
    rewrite array_index by assumption. unfold idx_entry. now rewrite Hg. }
  destruct (inv_done _ _ Hinv _ _ Hin) as [off [Hg [Hat Hm]]].
  destruct (row_at_layout _ _ _ Hat) as [_ [_ [Hoff _]]].
  exists (off + (t_max t + 1)). split; [apply Hidx, Hg|]. split; [now apply array_row|]. split.
  - intros m row' Hin'. destruct (inv_done _ _ Hinv _ _ Hin') as [o [Hg' _]].
    apply Hidx in Hg'. lia.
  - intros i' Hin'. destruct (inv_done _ _ Hinv _ _ Hin') as [o [Hg' [_ Hm']]].
    rewrite Hm in Hm'. injection Hm' as <-. apply Hidx, Hg'.
Qed.

Lemma index_cases : forall miss rows arr i m row',
  build_with miss rows = Some arr -> In (m, row') rows -> (i <= m)%nat ->
  (exists row, In (i, row) rows) \/ nthz arr (Z.of_nat i) = Some miss.
Proof.
  intros miss rows arr i m row' H Hin Him. destruct (build_inv _ _ _ H) as [t [Hinv ->]].
  destruct (inv_done _ _ Hinv _ _ Hin) as [o [Hg _]].
  destruct (inv_idx _ _ Hinv _ _ Hg) as [Hle _].
  rewrite array_index by lia. unfold idx_entry.
  destruct (index_get (t_index t) i) as [o'|] eqn:Hg'; [left | now right].
  exact (proj2 (inv_idx _ _ Hinv _ _ Hg')).
Qed.

Theorem array_decode : forall rows arr, build rows = Some arr ->
  (forall i row, In (i, row) rows ->
     read_row arr (Z.of_nat i) = Some row /\
     exists off, nthz arr (Z.of_nat i) = Some off /\
                 nthz arr off = Some (Z.of_nat (length row)) /\
                 seg arr (off + 1) row) /\
  (forall i m row', In (m, row') rows -> (i <= m)%nat -> ~ In i (map fst rows) ->
     nthz arr (Z.of_nat i) = Some (-1) /\ read_row arr (Z.of_nat i) = None).
Proof.
  intros rows arr H. split.
  - intros i row Hin. destruct (row_stored _ _ _ _ _ H Hin) as [off [Hi [Hat _]]].
    split; [exact (read_row_at _ _ _ _ Hi Hat)|].
    exists off. destruct (row_at_layout _ _ _ Hat) as [Hn [Hs _]]. auto.
  - intros i m row' Hin Him Hnot.
    destruct (index_cases _ _ _ _ _ _ H Hin Him) as [[row Hr] | Hi].
    + destruct Hnot. exact (in_map fst _ _ Hr).
    + split; [exact Hi|]. unfold read_row. rewrite Hi. reflexivity.
Qed.

(* every entry of the index vector (positions 0 .. maxIndex) is the "missing"
   marker or the offset of a length-prefixed row of [rows] lying entirely
   inside arr, after the index vector *)
Theorem offsets_in_bounds_with : forall miss rows arr, build_with miss rows = Some arr ->
  forall i m row', In (m, row') rows -> (i <= m)%nat ->
  exists off, nthz arr (Z.of_nat i) = Some off /\
    (off = miss \/
     exists row, In (i, row) rows /\
       nthz arr off = Some (Z.of_nat (length row)) /\ seg arr (off + 1) row /\
       Z.of_nat m < off /\ off + 1 + Z.of_nat (length row) <= Z.of_nat (length arr)).
Proof.
  intros miss rows arr H i m row' Hin Him.
  destruct (index_cases _ _ _ _ _ _ H Hin Him) as [[row Hr] | Hi]; [|exists miss; auto].
  destruct (row_stored _ _ _ _ _ H Hr) as [off [Hi [Hat [Hlt _]]]].
  exists off. split; [exact Hi|]. right. exists row. split; [exact Hr|].
  destruct (row_at_layout _ _ _ Hat) as [Hn [Hs [_ Hb]]].
  repeat split; try assumption. exact (Hlt _ _ Hin).
Qed.

Theorem offsets_in_bounds : forall rows arr, build rows = Some arr ->
  forall i m row', In (m, row') rows -> (i <= m)%nat ->
  exists off, nthz arr (Z.of_nat i) = Some off /\
    (off = -1 \/
     exists row, In (i, row) rows /\
       nthz arr off = Some (Z.of_nat (length row)) /\ seg arr (off + 1) row /\
       Z.of_nat m < off /\ off + 1 + Z.of_nat (length row) <= Z.of_nat (length arr)).
Proof. intros rows arr H. exact (offsets_in_bounds_with _ _ _ H). Qed.

Theorem share_iff_identical : forall miss rows arr, build_with miss rows = Some arr ->
  forall i1 r1 i2 r2, In (i1, r1) rows -> In (i2, r2) rows ->
  (nthz arr (Z.of_nat i1) = nthz arr (Z.of_nat i2) <-> r1 = r2).
Proof.
  intros miss rows arr H i1 r1 i2 r2 H1 H2.
  destruct (row_stored _ _ _ _ _ H H1) as [o1 [Hi1 [Hat1 [_ Hsame]]]].
  destruct (row_stored _ _ _ _ _ H H2) as [o2 [Hi2 [Hat2 _]]].
  rewrite Hi1. split.
  - rewrite Hi2. intros [= <-]. exact (row_at_inj _ _ _ _ Hat1 Hat2).
  - intros <-. symmetry. exact (Hsame _ H2).
Qed.

Fixpoint assoc_z (x : Z) (ps : list (Z * Z)) : option Z :=
  match ps with
  | [] => None
  | (k, v) :: rest => if k =? x then Some v else assoc_z x rest
  end.

Lemma find_scan_seg : forall arr x ps fuel i,
  seg arr i (flat_pairs ps) -> (length ps < fuel)%nat ->
  find_scan fuel arr i (i + 2 * Z.of_nat (length ps)) x =
  match assoc_z x ps with Some v => FFound v | None => FNone end.
Proof.
  intros arr x. induction ps as [|[k v] ps IH]; intros fuel i Hs Hf;
    (destruct fuel as [|fuel]; [lia|]); cbn [find_scan assoc_z length].
  - destruct (i <? i + 2 * Z.of_nat 0) eqn:E; [lia | reflexivity].
  - cbn [length] in Hf. cbn [flat_pairs seg] in Hs. destruct Hs as [H1 [H2 H3]].
    destruct (i <? i + 2 * Z.of_nat (S (length ps))) eqn:E; [|lia].
    rewrite H1. destruct (k =? x) eqn:Ek.
    + rewrite H2. reflexivity.
    + replace (i + 2 * Z.of_nat (S (length ps))) with (i + 2 + 2 * Z.of_nat (length ps)) by lia.
      replace (i + 1 + 1) with (i + 2) in H3 by lia.
      apply IH; [exact H3 | lia].
Qed.

Lemma assoc_z_in : forall x v ps, NoDup (map fst ps) -> In (x, v) ps -> assoc_z x ps = Some v.
Proof.
  intros x v. induction ps as [|[k w] ps IH]; intros Hnd Hin; [contradiction|].
  cbn [map fst] in Hnd. inversion Hnd as [|? ? Hnot Hnd']; subst.
  cbn [assoc_z]. destruct Hin as [Heq|Hin].
  - inversion Heq; subst. rewrite Z.eqb_refl. reflexivity.
  - destruct (k =? x) eqn:E.
    + apply Z.eqb_eq in E. subst k. exfalso. apply Hnot.
      change x with (fst (x, v)). apply in_map. exact Hin.
    + apply IH; assumption.
Qed.

Lemma assoc_z_notin : forall x ps, ~ In x (map fst ps) -> assoc_z x ps = None.
Proof.
  intros x. induction ps as [|[k w] ps IH]; intros Hnot; [reflexivity|].
  cbn [assoc_z]. cbn [map fst In] in Hnot. destruct (k =? x) eqn:E.
  - apply Z.eqb_eq in E. exfalso. apply Hnot. left. exact E.
  - apply IH. intros Hin. apply Hnot. right. exact Hin.
Qed.

(* _Find on a row of pairs returns the first match (keys need not be distinct) *)
Theorem find_first_match : forall miss rows arr s ps x,
  build_with miss rows = Some arr -> In (s, flat_pairs ps) rows ->
  find arr (Z.of_nat s) x = match assoc_z x ps with Some v => FFound v | None => FNone end.
Proof.
  intros miss rows arr s ps x H Hin.
  destruct (row_stored _ _ _ _ _ H Hin) as [off [Hi [Hat _]]].
  destruct (row_at_layout _ _ _ Hat) as [Hn [Hs _]].
  unfold find. rewrite Hi, Hn.
  rewrite flat_pairs_length.
  replace (off + 1 + Z.of_nat (2 * length ps)) with (off + 1 + 2 * Z.of_nat (length ps)) by lia.
  apply find_scan_seg; [exact Hs | lia].
Qed.

Theorem find_is_assoc : forall rows arr s ps,
  build rows = Some arr -> In (s, flat_pairs ps) rows -> NoDup (map fst ps) ->
  (forall x v, In (x, v) ps -> find arr (Z.of_nat s) x = FFound v) /\
  (forall x, ~ In x (map fst ps) -> find arr (Z.of_nat s) x = FNone) /\
  (forall x, find arr (Z.of_nat s) x <> FCrash).
Proof.
  intros rows arr s ps H Hin Hnd. repeat split.
  - intros x v Hxv. rewrite (find_first_match _ _ _ _ _ x H Hin).
    rewrite (assoc_z_in _ _ _ Hnd Hxv). reflexivity.
  - intros x Hnot. rewrite (find_first_match _ _ _ _ _ x H Hin).
    rewrite (assoc_z_notin _ _ Hnot). reflexivity.
  - intros x. rewrite (find_first_match _ _ _ _ _ x H Hin).
    destruct (assoc_z x ps); discriminate.
Qed.

(* a state that has no row (a gap in the indices) makes _Find crash, it does
   not return "not found": emit_parser.go adds a row for every state *)
Theorem find_missing_crashes : forall rows arr i m row' x,
  build rows = Some arr -> In (m, row') rows -> (i <= m)%nat -> ~ In i (map fst rows) ->
  find arr (Z.of_nat i) x = FCrash.
Proof.
  intros rows arr i m row' x H Hin Him Hnot.
  destruct (array_decode _ _ H) as [_ Hmiss].
  destruct (Hmiss _ _ _ Hin Him Hnot) as [Hi _].
  unfold find. rewrite Hi. reflexivity.
Qed.

Theorem lex_row_decode_with : forall miss rows arr s flag trans acts,
  build_with miss rows = Some arr -> In (s, encode_lex_row flag trans acts) rows ->
  decode_row arr (Z.of_nat s) = Some {| v_flag := flag; v_trans := trans; v_acts := acts |}.
Proof.
  intros miss rows arr s flag trans acts H Hin.
  destruct (row_stored _ _ _ _ _ H Hin) as [off [Hi [Hat _]]].
  destruct (row_at_layout _ _ _ Hat) as [Hn [Hs _]].
  unfold encode_lex_row in Hn, Hs. rewrite Zlength_correct in Hn, Hs.
  cbn [seg] in Hs. destruct Hs as [Hfl [Hgn Hs]].
  apply seg_app in Hs. destruct Hs as [Htr Hac].
  rewrite flat_triples_length in Hac.
  cbn [length] in Hn. rewrite app_length, flat_triples_length, flat_pairs_length in Hn.
  replace (off + 1 + 1) with (off + 2) in * by lia.
  replace (off + 2 + 1) with (off + 3) in * by lia.
  replace (off + 3 + Z.of_nat (3 * length trans)) with (off + 3 + 3 * Z.of_nat (length trans)) in Hac by lia.
  unfold decode_row. change LexRuntime.nthz with nthz. rewrite Hi, Hn, Hfl, Hgn. cbv zeta.
  replace (Z.of_nat (S (S (3 * length trans + 2 * length acts))) - 2 - 3 * Z.of_nat (length trans))
    with (Z.of_nat (length acts) * 2) by lia.
  rewrite Z.div_mul by lia. rewrite Z.even_mul. cbn [Z.even].
  rewrite orb_true_r. cbn [negb].
  destruct (Z.of_nat (length trans) <? 0) eqn:E1; [lia|].
  destruct (Z.of_nat (length acts) * 2 <? 0) eqn:E2; [lia|].
  cbn [orb]. rewrite !Nat2Z.id.
  rewrite (seg_take_triples _ _ _ Htr), (seg_take_pairs _ _ _ Hac).
  destruct flag; reflexivity.
Qed.

(* the lexer tables use the uint32 instantiation *)
Theorem lex_row_decode : forall rows arr s flag trans acts,
  build_u rows = Some arr -> In (s, encode_lex_row flag trans acts) rows ->
  decode_row arr (Z.of_nat s) = Some {| v_flag := flag; v_trans := trans; v_acts := acts |}.
Proof. intros rows arr s flag trans acts. apply lex_row_decode_with. Qed.

Lemma add_row_some : forall t i row, t_max t < Z.of_nat i ->
  exists t', add_row t i row = Some t' /\ t_max t' = Z.of_nat i.
Proof.
  intros t i row Hlt. unfold add_row.
  destruct (Z.of_nat i <=? t_max t) eqn:E; [lia|].
  destruct (rowmap_get (t_rowmap t) (row_key row)); eexists; split; reflexivity.
Qed.

Lemma add_row_none : forall t i row, Z.of_nat i <= t_max t -> add_row t i row = None.
Proof.
  intros t i row Hle. unfold add_row.
  destruct (Z.of_nat i <=? t_max t) eqn:E; [reflexivity | lia].
Qed.

Lemma add_rows_total : forall rows t,
  add_rows t rows <> None <-> increasing (t_max t) rows = true.
Proof.
  induction rows as [|[i row] rest IH]; intros t; cbn [add_rows increasing].
  - split; [reflexivity | discriminate].
  - destruct (t_max t <? Z.of_nat i) eqn:E.
    + destruct (add_row_some t i row ltac:(lia)) as [t' [Ha Hm]].
      rewrite Ha. cbn [andb]. rewrite <- Hm. apply IH.
    + rewrite add_row_none by lia. cbn [andb]. split; [congruence | discriminate].
Qed.

Theorem build_total : forall miss rows,
  (build_with miss rows <> None <-> increasing (-1) rows = true) /\
  (build_with miss rows = None <-> increasing (-1) rows = false).
Proof.
  intros miss rows.
  assert (H : build_with miss rows <> None <-> increasing (-1) rows = true).
  { rewrite <- (add_rows_total rows empty_table). unfold build_with.
    destruct (add_rows empty_table rows); split; congruence. }
  split; [exact H|]. rewrite <- not_true_iff_false, <- H.
  destruct (build_with miss rows) as [arr|].
  - split; [discriminate | intros Hn; destruct Hn; discriminate].
  - split; [intros _ Hn; now apply Hn | reflexivity].
Qed.

Lemma increasing_sorted_from : forall rows p,
  increasing (Z.of_nat p) rows = true <-> Sorted lt (p :: map fst rows).
Proof.
  induction rows as [|[i row] rest IH]; intros p; cbn [increasing map fst].
  - split; [intros _; repeat constructor | reflexivity].
  - rewrite andb_true_iff, IH. split.
    + intros [Hlt Hs]. constructor; [exact Hs | constructor; lia].
    + intros Hs. inversion Hs as [|? ? Hs' Hhd]; subst. inversion Hhd; subst.
      split; [lia | exact Hs'].
Qed.

Theorem increasing_sorted : forall rows,
  increasing (-1) rows = true <-> Sorted lt (map fst rows).
Proof.
  intros rows. destruct rows as [|[i row] rest]; cbn [increasing map fst].
  - split; [intros _; constructor | reflexivity].
  - rewrite andb_true_iff, increasing_sorted_from. split; [tauto|].
    intros Hs. split; [lia | exact Hs].
Qed.

Theorem build_total_sorted : forall rows,
  build rows <> None <-> Sorted lt (map fst rows).
Proof.
  intros rows. rewrite <- increasing_sorted. apply (build_total (-1) rows).
Qed.

Print Assumptions row_key_injective.
Print Assumptions row_key_injective_range.
Print Assumptions varint_shape.
Print Assumptions array_decode.
Print Assumptions offsets_in_bounds.
Print Assumptions share_iff_identical.
Print Assumptions find_is_assoc.
Print Assumptions find_missing_crashes.
Print Assumptions lex_row_decode.
Print Assumptions build_total.
Print Assumptions build_total_sorted.
