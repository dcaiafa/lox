(* A4: one small specification per diagnostic kind produced by [analyze]
   (Gen/Analyze.v), checked by computation.  Every example was also run
   through the real tool (lox with the fixes c05ffe8, 938df3a, b7deef5), the
   expected list is the tool's output (message -> kind, line -> declaration id).
   A2: three clauses that those fixes enforce, and the refutation of
   "accepted -> well formed" by the one clause lox does not enforce. *)
From Coq Require Import List String Ascii ZArith.
From Lox Require Import Gen.Analyze.
Import ListNotations.
Local Open Scope string_scope.

Definition L (s : string) : lterm :=
  LLit (map (fun a => Z.of_N (N_of_ascii a)) (list_ascii_of_string s)).
Definition one (t : lterm) : lexpr := [[(t, COne)]].
Definition sq (l : list lterm) : lexpr := [map (fun t => (t, COne)) l].
Definition tok (id : nat) (n s : string) : decl := DToken id n (one (L s)) [].

(*  @lexer
    A = 'a'                 (1)
    A_B = 'b' @push_mode(Mo) (2)
    @macro D = [0-9]        (3)
    NUM = D+                (4)
    @frag ' ' @discard      (5)
    @mode Mo { C = 'c' @pop_mode (7) }   (6)
    @parser
    @start s = A*! t? @list(A, 'b')? @error   (8)
    t = NUM | 'c'           (9)
    (lox then stops with "grammar has conflicts": a later phase) *)
Definition ex_ok : spec := [[
  tok 1 "A" "a"; DToken 2 "A_B" (one (L "b")) [APush "Mo"];
  DMacro 3 "D" (one (LClass [(48, 57)%Z]));
  DToken 4 "NUM" [[(LRef "D", COneOrMore)]] [];
  DFrag 5 (one (L " ")) [ADiscard];
  DMode 6 "Mo" [DToken 7 "C" (one (L "c")) [APop]];
  DRule 8 true "s" [[PCard PZeroOrMoreF (PName "A"); PCard PZeroOrOne (PName "t");
                     PList (PName "A") (PAlias "b") true; PError]];
  DRule 9 false "t" [[PName "NUM"]; [PAlias "c"]]]].
Example ex_ok_accepted :
  analyze ex_ok = [] /\ well_formed ex_ok = true /\ well_formed_weak ex_ok = true.
Proof. vm_compute. auto. Qed.

(* a lexer-only specification needs no @start *)
Example ex_lexer_only : analyze [[tok 1 "A" "a"]] = [] /\ well_formed [[tok 1 "A" "a"]] = true.
Proof. vm_compute. auto. Qed.

(* One namespace; the second definition is blamed; the body of a rejected
   mode is not visited (no "C redefined"); a redefined rule is not considered
   for @start. *)
Definition ex_redefined : spec := [[
  tok 2 "A" "a"; tok 3 "A" "b"; DMacro 4 "A" (one (L "c"));
  DMode 5 "A" [tok 6 "C" "c"; tok 7 "C" "d"];
  DMode 9 "Mo" [tok 10 "D" "d"; tok 11 "D" "e"];
  DExternal 13 ["A"; "D"; "E"];
  DRule 15 true "s" [[PName "A"]]; DRule 16 true "s" [[PName "A"]];
  DRule 17 true "Mo" [[PName "A"]]; DRule 18 true "t" [[PName "A"]]]].
Example ex_redefined_diags :
  analyze ex_redefined =
  [(KRedefined, Some 3); (KRedefined, Some 4); (KRedefined, Some 5); (KRedefined, Some 11);
   (KRedefined, Some 13); (KRedefined, Some 13); (KRedefined, Some 16); (KRedefined, Some 17);
   (KStartRedefined, Some 18)].
Proof. vm_compute. reflexivity. Qed.

(* two files: the one read second is blamed *)
Example ex_redefined_files :
  analyze [[tok 102 "A" "a"; DRule 105 true "t" [[PName "A"]]];
           [tok 202 "A" "b"; DRule 208 true "s" [[PName "A"]]]]
  = [(KRedefined, Some 202); (KStartRedefined, Some 208)].
Proof. vm_compute. reflexivity. Qed.

(* validateTokenName: tokens, macros, external names -- not modes, not rules *)
Definition ex_names : spec := [[
  tok 2 "Ab" "a"; tok 3 "A_" "b"; tok 4 "A__B" "c"; tok 5 "EOF" "d"; tok 6 "ERROR" "e";
  DMacro 7 "m" (one (L "c")); DMacro 8 "EOF" (one (L "c"));
  DExternal 9 ["x"; "ERROR"; "OK_1"];
  DMode 10 "lower_mode__" [tok 11 "Z9" "z"];
  tok 13 "A1_B" "q";
  DRule 15 true "a__b" [[PName "A1_B"; PName "Ab"]]]].
Example ex_names_diags :
  analyze ex_names =
  [(KBadName, Some 2); (KBadName, Some 3); (KBadName, Some 4); (KReservedName, Some 5);
   (KReservedName, Some 6); (KBadName, Some 7); (KReservedName, Some 8); (KBadName, Some 9);
   (KReservedName, Some 9)].
Proof. vm_compute. reflexivity. Qed.

(* A, B share the literal 'a' (ambiguous); C = 'c'+, D = 'd' | 'dd',
   E = ('e') get no alias; X is external. *)
Definition ex_check : spec := [[
  tok 2 "A" "a"; tok 3 "B" "a";
  DToken 4 "C" [[(L "c", COneOrMore)]] [];
  DToken 5 "D" [[(L "d", COne)]; [(L "dd", COne)]] [];
  DToken 6 "E" (one (LGroup (one (L "e")))) [];
  tok 7 "F" "f";
  DMacro 8 "M" (sq [L "x"; LRef "UNDEF"; LRef "A"]);
  DToken 9 "G" (sq [LRef "M"; LRef "Mo"; LRef "s"; L ""])
         [APush "Nope"; APush "$default"; APush "Mo"; APush "A"];
  DFrag 10 (one (L "y")) [AEmit "M"; AEmit "NOPE"; AEmit "A"; AEmit "s"; AEmit "X"];
  DExternal 11 ["X"];
  DMode 12 "Mo" [DToken 13 "H" [[(L "", CZeroOrOne);
                                  (LGroup [[(L "", COne)]; [(LRef "Q", COne)]], COne)]] [APop]];
  DRule 16 true "s" [[PName "A"; PAlias "a"; PAlias "c"; PAlias "d"; PAlias "e"; PAlias "f";
                      PName "M"; PName "Mo"; PName "X"; PName "s"; PName "undefined"; PName "A"]];
  DRule 17 false "t" [[PList (PName "A") (PList (PName "A") (PName "B") false) false];
                      [PList PError (PName "A") false];
                      [PList (PName "A") PError false];
                      [PList (PName "u") (PAlias "zz") true];
                      [PList (PList (PName "A") (PName "B") false) PError false]];
  DRule 18 false "u" [[PCard PZeroOrMore (PName "X")]; [PName "A"]]]].
Example ex_check_diags :
  analyze ex_check =
  [(KUndefined, Some 8); (KNotAMacro, Some 8);
   (KNotAMacro, Some 9); (KNotAMacro, Some 9); (KEmptyLiteral, Some 9);
   (KUndefinedMode, Some 9); (KUndefinedMode, Some 9);
   (KNotAToken, Some 10); (KUndefined, Some 10); (KNotAToken, Some 10); (KNotAToken, Some 10);
   (KEmptyLiteral, Some 13); (KEmptyLiteral, Some 13); (KUndefined, Some 13);
   (KAmbiguousAlias, Some 16); (KUnknownAlias, Some 16); (KUnknownAlias, Some 16);
   (KUnknownAlias, Some 16); (KNotRuleOrToken, Some 16); (KNotRuleOrToken, Some 16);
   (KNotRuleOrToken, Some 16); (KUndefined, Some 16);
   (KListSepNotSimple, Some 17); (KListEntryNotSimple, Some 17); (KListSepNotSimple, Some 17);
   (KUnknownAlias, Some 17); (KListEntryNotSimple, Some 17);
   (KNotRuleOrToken, Some 18)].
Proof. vm_compute. reflexivity. Qed.

(* non-ASCII literal: the alias key is the UTF-8 byte string *)
Example ex_utf8_alias :
  analyze [[DToken 2 "A" (one (LLit [19990%Z])) []; DToken 3 "B" (one (LLit [233%Z])) [];
            DRule 5 true "s" [[PAlias (String (ascii_of_nat 228) (String (ascii_of_nat 184)
                                        (String (ascii_of_nat 150) "")));
                               PAlias (String (ascii_of_nat 195) (String (ascii_of_nat 169) ""));
                               PAlias "e"]]]]
  = [(KUnknownAlias, Some 5)].
Proof. vm_compute. reflexivity. Qed.

(* A = [z-a]; B = [a-b] [z-a c-b x] - [b-a q-p]; M = [9-0] N; N = M; C = ~[b-a]
   one diagnostic per reversed item; M's own diagnostic switches the cycle
   walk off *)
Definition ex_ranges : spec := [[
  DToken 2 "A" (one (LClass [(122, 97)%Z])) [];
  DToken 3 "B" (sq [LClass [(97, 98)%Z];
                    LClass [(122, 97); (99, 98); (120, 120); (98, 97); (113, 112)]%Z]) [];
  DMacro 4 "M" (sq [LClass [(57, 48)%Z]; LRef "N"]);
  DMacro 5 "N" (one (LRef "M"));
  DToken 6 "C" (one (LClass [(98, 97)%Z])) []]].
Example ex_ranges_diags :
  analyze ex_ranges =
  [(KBadRange, Some 2); (KBadRange, Some 3); (KBadRange, Some 3); (KBadRange, Some 3);
   (KBadRange, Some 3); (KBadRange, Some 4); (KBadRange, Some 6)].
Proof. vm_compute. reflexivity. Qed.

(* M = N; N = P; P = N; Q = Q; B = Q : the walk from M re-enters N, which is
   blamed; nothing is logged afterwards (HasError stops every later walk) *)
Example ex_cycle_once :
  analyze [[tok 2 "A" "a"; DMacro 3 "M" (one (LRef "N")); DMacro 4 "N" (one (LRef "P"));
            DMacro 5 "P" (one (LRef "N")); DMacro 6 "Q" (one (LRef "Q"));
            DToken 7 "B" (one (LRef "Q")) []]]
  = [(KMacroCycle, Some 4)].
Proof. vm_compute. reflexivity. Qed.

(* K = 'k' ('x' | A | Q); Q = Q; R = R : an earlier diagnostic hides all cycles *)
Example ex_cycle_masked :
  analyze [[tok 2 "A" "a";
            DMacro 3 "K" (sq [L "k"; LGroup [[(L "x", COne)]; [(LRef "A", COne)]; [(LRef "Q", COne)]]]);
            DMacro 4 "Q" (one (LRef "Q")); DMacro 5 "R" (one (LRef "R"))]]
  = [(KNotAMacro, Some 3)].
Proof. vm_compute. reflexivity. Qed.

(* M = 'x' (A2 | N) N; A2 = 'y'; N = A2 M; B = UNDEF; R = R;
   @start s = A '' | @list('', A) | @list(A, '')? *)
Example ex_cycle_then_others :
  analyze [[tok 2 "A" "a";
            DMacro 3 "M" (sq [L "x"; LGroup [[(LRef "A2", COne)]; [(LRef "N", COne)]]; LRef "N"]);
            DMacro 4 "A2" (one (L "y")); DMacro 5 "N" (sq [LRef "A2"; LRef "M"]);
            DToken 6 "B" (one (LRef "UNDEF")) []; DMacro 7 "R" (one (LRef "R"));
            DRule 9 true "s" [[PName "A"; PAlias ""]; [PList (PAlias "") (PName "A") false];
                              [PList (PName "A") (PAlias "") true]]]]
  = [(KMacroCycle, Some 3); (KUndefined, Some 6); (KEmptyLiteral, Some 9);
     (KEmptyLiteral, Some 9); (KEmptyLiteral, Some 9)].
Proof. vm_compute. reflexivity. Qed.

(* K = 'k' is an ordinary macro.  A token reports only its first offending
   action; a fragment: second @discard / second @emit inside the loop, both
   after it. *)
Definition ex_gen : spec := [[
  DToken 2 "A" (one (L "a")) [ADiscard; AEmit "A"];
  DToken 3 "B" (one (L "b")) [AEmit "B"; ADiscard];
  DToken 4 "C" (one (L "c")) [APop; APush "$default"; AEmit "A"];
  DMacro 7 "K" (one (L "k"));
  DFrag 13 (one (L "f")) [ADiscard; ADiscard; AEmit "A"; AEmit "A"];
  DFrag 14 (one (L "g")) [AEmit "A"; ADiscard; AEmit "B"];
  DFrag 15 (one (L "h")) [AEmit "A"; APop; ADiscard];
  DFrag 16 (one (L "i")) [ADiscard; AEmit "A"];
  DFrag 17 (one (L "j")) [AEmit "A"; AEmit "A"; ADiscard; ADiscard];
  DFrag 18 (one (LRef "K")) [ADiscard; ADiscard];
  DMode 19 "Mo" [DToken 20 "G" (sq [L "g"; LRef "K"]) [ADiscard]];
  DRule 23 false "s" [[PName "A"]]]].
Example ex_gen_diags :
  analyze ex_gen =
  [(KTokenDiscard, Some 2); (KTokenEmit, Some 3); (KTokenEmit, Some 4);
   (KFragTwoDiscard, Some 13); (KFragTwoEmit, Some 14); (KFragDiscardAndEmit, Some 15);
   (KFragDiscardAndEmit, Some 16); (KFragTwoEmit, Some 17); (KFragTwoDiscard, Some 18);
   (KTokenDiscard, Some 20)].
Proof. vm_compute. reflexivity. Qed.

(* "@start rule undefined": general error, only when nothing else was logged *)
Example ex_start_undefined :
  analyze [[tok 2 "A" "a"; DRule 4 false "s" [[PName "A"]]; DRule 5 false "t" [[PName "s"]]]]
  = [(KStartUndefined, None)].
Proof. vm_compute. reflexivity. Qed.

Example ex_start_undefined_masked :
  analyze [[tok 2 "A" "a"; DFrag 3 (one (L "z")) [AEmit "A"; AEmit "A"];
            DRule 5 false "s" [[PName "A"]]]]
  = [(KFragTwoEmit, Some 3)].
Proof. vm_compute. reflexivity. Qed.

(* a later pass is not run: the token @discard of G is not reported while
   Check has something to say *)
Example ex_first_pass_only :
  analyze [[DToken 1 "G" (one (LRef "NOPE")) [ADiscard]]] = [(KUndefined, Some 1)].
Proof. vm_compute. reflexivity. Qed.

(* A2.  Rejected by c05ffe8, 938df3a, b7deef5 respectively; the tree before
   them accepted all three.
   A = [z-a] *)
Definition spec_reversed_range : spec := [[DToken 1 "A" (one (LClass [(122, 97)%Z])) []]].
Example reversed_range_rejected :
  analyze spec_reversed_range = [(KBadRange, Some 1)] /\ well_formed spec_reversed_range = false.
Proof. vm_compute. auto. Qed.

(* A = 'a'; @macro M = N; @macro N = M  (never used) *)
Definition spec_unused_cycle : spec :=
  [[tok 1 "A" "a"; DMacro 2 "M" (one (LRef "N")); DMacro 3 "N" (one (LRef "M"))]].
Example unused_macro_cycle_rejected :
  analyze spec_unused_cycle = [(KMacroCycle, Some 2)] /\ well_formed spec_unused_cycle = false.
Proof. vm_compute. auto. Qed.

Example used_macro_cycle_rejected :
  analyze [[DToken 1 "A" (one (LRef "M")) []; DMacro 2 "M" (one (LRef "N"));
            DMacro 3 "N" (one (LRef "M"))]] = [(KMacroCycle, Some 2)].
Proof. vm_compute. reflexivity. Qed.

(* @start s = A '' *)
Definition spec_empty_alias : spec :=
  [[tok 1 "A" "a"; DRule 2 true "s" [[PName "A"; PAlias ""]]]].
Example empty_alias_rejected :
  analyze spec_empty_alias = [(KEmptyLiteral, Some 2)] /\ well_formed spec_empty_alias = false.
Proof. vm_compute. auto. Qed.

(* The clause lox does not enforce: @start a__b = A  -- parser_reference.md forbids
   consecutive underscores in rule names, lox accepts them. *)
Definition spec_rule_name : spec := [[tok 1 "A" "a"; DRule 2 true "a__b" [[PName "A"]]]].
Example rule_name_refuted :
  analyze spec_rule_name = [] /\ well_formed spec_rule_name = false /\
  well_formed_weak spec_rule_name = true.
Proof. vm_compute. auto. Qed.

Theorem analyze_rejects_iff_refuted : ~ (forall s, analyze s = [] -> well_formed s = true).
Proof.
  intros H. destruct rule_name_refuted as [H1 [H2 _]].
  specialize (H spec_rule_name H1). rewrite H2 in H. discriminate.
Qed.
