(* What ResolveModel.resolve does to a cell: it resolves only one shift against
   one reduce of the same rule with both levels given, by level, and at equal
   levels keeps the shift only for a @right production listed exactly once. *)
From Coq Require Import List Arith Lia Bool.
From Lox Require Import Gen.ResolveModel.
Import ListNotations.

Section Proofs.
Variable prec : nat -> nat.
Variable assoc_right : nat -> bool.
Variable rule_of : nat -> nat.

Notation resolve := (resolve prec assoc_right rule_of).
Notation resolve_sr := (resolve_sr prec assoc_right rule_of).
Notation all_same := (all_same prec rule_of).
Notation cell_conflict := (cell_conflict prec assoc_right rule_of).

Definition sr_cell (cell : list cact) (tgt : nat) (sp : list nat) (p : nat) : Prop :=
  cell = [CShift tgt sp; CReduce p] \/ cell = [CReduce p; CShift tgt sp].

Lemma resolve_sr_cell cell tgt sp p :
  sr_cell cell tgt sp p -> resolve cell = resolve_sr tgt sp p.
Proof. intros [Hc | Hc]; subst cell; reflexivity. Qed.

Lemma resolve_some_sr_cell cell r :
  resolve cell = Some r -> exists tgt sp p, sr_cell cell tgt sp p.
Proof.
  unfold resolve, ResolveModel.resolve, sr_cell. intros H.
  destruct cell as [|a [|b [|c rest]]]; try discriminate.
  - destruct a; discriminate.
  - destruct a as [t sp | p |]; destruct b as [t' sp' | p' |]; try discriminate.
    + exists t, sp, p'. now left.
    + exists t', sp', p. now right.
  - destruct a as [t sp | p |]; try discriminate; destruct b; discriminate.
Qed.

Lemma all_same_iff r pr ps :
  all_same r pr ps = true <-> forall q, In q ps -> rule_of q = r /\ prec q = pr.
Proof.
  unfold all_same, ResolveModel.all_same. rewrite forallb_forall.
  split; intros H q Hq; specialize (H q Hq);
    rewrite andb_true_iff, !Nat.eqb_eq in *; exact H.
Qed.

(* when resolveConflict decides a shift/reduce pair at all *)
Definition sr_ok (sp : list nat) (p : nat) : Prop :=
  sp <> [] /\
  (forall q, In q sp -> rule_of q = rule_of p) /\
  (forall q q', In q sp -> In q' sp -> prec q = prec q') /\
  (forall q, In q sp -> 0 < prec q) /\
  0 < prec p.

Definition single_right (sp : list nat) (p : nat) : bool :=
  match sp with [q0] => (q0 =? p) && assoc_right q0 | _ => false end.

Definition keep_shift (sp : list nat) (p : nat) : bool :=
  match sp with
  | [] => false
  | q :: _ =>
      if prec q <? prec p then false
      else if prec p <? prec q then true
      else single_right sp p
  end.

Lemma sr_ok_cons q rest p :
  sr_ok (q :: rest) p <->
  all_same (rule_of q) (prec q) rest = true /\ rule_of q = rule_of p /\
  prec q <> 0 /\ prec p <> 0.
Proof.
  rewrite all_same_iff. unfold sr_ok. split.
  - intros (_ & Hrule & Hsame & Hpos & Hp).
    assert (Hq : In q (q :: rest)) by now left.
    specialize (Hpos q Hq). split; [|split; [auto|lia]].
    intros q' Hq'. apply (in_cons q) in Hq'.
    split; [rewrite (Hrule q), (Hrule q')|]; auto.
  - intros (Hall & Hrule & Hq0 & Hp0).
    assert (Hin : forall q', In q' (q :: rest) -> rule_of q' = rule_of q /\ prec q' = prec q).
    { intros q' [<- | Hq']; auto. }
    repeat split; try discriminate; try lia.
    + intros q' Hq'. destruct (Hin q' Hq'). congruence.
    + intros q1 q2 H1 H2. destruct (Hin q1 H1), (Hin q2 H2). congruence.
    + intros q' Hq'. destruct (Hin q' Hq'). lia.
Qed.

Lemma some_eq_iff {A} (x r : A) (P : Prop) : P -> (Some x = Some r <-> P /\ r = x).
Proof. intros HP. split; [intros [= <-]; auto | intros [_ ->]; reflexivity]. Qed.

Lemma none_eq_iff {A} (x r : A) (P : Prop) : ~ P -> (None = Some r <-> P /\ r = x).
Proof. intros HP. split; [discriminate | tauto]. Qed.

(* [resolve_sr] is a cascade of [if]s ending in None or Some; in each branch
   the goal has the shape of one of the two lemmas above, with P the
   conjunction of the tests passed so far (hence [true = true /\ ...]) *)
Lemma resolve_sr_iff tgt sp p r :
  resolve_sr tgt sp p = Some r <->
  sr_ok sp p /\ r = if keep_shift sp p then [CShift tgt sp] else [CReduce p].
Proof.
  destruct sp as [|q rest]; [apply none_eq_iff; intros [H _]; now destruct H|].
  rewrite sr_ok_cons. unfold resolve_sr, ResolveModel.resolve_sr, keep_shift, single_right.
  destruct (all_same (rule_of q) (prec q) rest); cbn [negb];
    [|apply none_eq_iff; intros [H _]; discriminate].
  destruct (Nat.eqb_spec (rule_of q) (rule_of p)); cbn [negb]; [|apply none_eq_iff; tauto].
  destruct (Nat.eqb_spec (prec q) 0); cbn [orb]; [apply none_eq_iff; tauto|].
  destruct (Nat.eqb_spec (prec p) 0); [apply none_eq_iff; tauto|].
  assert (HP : true = true /\ rule_of q = rule_of p /\ prec q <> 0 /\ prec p <> 0) by auto.
  destruct (prec q <? prec p); [apply some_eq_iff, HP|].
  destruct (prec p <? prec q); [apply some_eq_iff, HP|].
  destruct rest; [destruct ((q =? p) && assoc_right q)|]; apply some_eq_iff, HP.
Qed.

Theorem resolve_only_sr_same_rule cell r :
  resolve cell = Some r ->
  exists tgt sp p,
    sr_cell cell tgt sp p /\
    sp <> [] /\
    (forall q, In q sp -> rule_of q = rule_of p) /\
    (forall q q', In q sp -> In q' sp -> prec q = prec q') /\
    (forall q, In q sp -> 0 < prec q) /\
    0 < prec p /\
    (r = [CShift tgt sp] \/ r = [CReduce p]).
Proof.
  intros H. destruct (resolve_some_sr_cell _ _ H) as (tgt & sp & p & Hc).
  exists tgt, sp, p. split; [exact Hc|].
  rewrite (resolve_sr_cell _ _ _ _ Hc) in H.
  apply resolve_sr_iff in H. destruct H as [(H1 & H2 & H3 & H4 & H5) ->].
  repeat (split; [assumption|]). destruct (keep_shift sp p); auto.
Qed.

Corollary resolve_reduce_reduce p q : resolve [CReduce p; CReduce q] = None.
Proof. reflexivity. Qed.

Corollary resolve_three a b c rest : resolve (a :: b :: c :: rest) = None.
Proof. destruct a; [| |reflexivity]; destruct b; reflexivity. Qed.

Corollary reduce_reduce_conflict p q : cell_conflict [CReduce p; CReduce q] = true.
Proof. reflexivity. Qed.

Corollary three_actions_conflict a b c rest : cell_conflict (a :: b :: c :: rest) = true.
Proof.
  unfold cell_conflict, ResolveModel.cell_conflict. rewrite resolve_three. reflexivity.
Qed.

Lemma sr_cell_conflict cell tgt sp p :
  sr_cell cell tgt sp p -> ~ sr_ok sp p -> cell_conflict cell = true.
Proof.
  intros Hc Hno. unfold cell_conflict, ResolveModel.cell_conflict.
  rewrite (resolve_sr_cell _ _ _ _ Hc).
  destruct (resolve_sr tgt sp p) as [r|] eqn:Hr.
  - apply resolve_sr_iff in Hr. tauto.
  - destruct Hc; subst; reflexivity.
Qed.

Corollary spanning_rules_conflict cell tgt sp p q :
  sr_cell cell tgt sp p -> In q sp -> rule_of q <> rule_of p -> cell_conflict cell = true.
Proof.
  intros Hc Hq Hne. apply (sr_cell_conflict _ _ _ _ Hc).
  intros (_ & Hrule & _). now apply Hrule in Hq.
Qed.

Corollary unqualified_conflict cell tgt sp p q :
  sr_cell cell tgt sp p -> (q = p \/ In q sp) -> prec q = 0 -> cell_conflict cell = true.
Proof.
  intros Hc Hq H0. apply (sr_cell_conflict _ _ _ _ Hc).
  intros (_ & _ & _ & Hpos & Hp).
  destruct Hq as [-> | Hq]; [lia | apply Hpos in Hq; lia].
Qed.

(* under sr_ok every listed production q may stand for the level of the shift *)
Theorem resolve_law cell tgt sp p r q :
  sr_cell cell tgt sp p -> resolve cell = Some r -> In q sp ->
  r = if (prec p <? prec q) || ((prec q =? prec p) && single_right sp p)
      then [CShift tgt sp] else [CReduce p].
Proof.
  intros Hc Hr Hq. rewrite (resolve_sr_cell _ _ _ _ Hc) in Hr.
  apply resolve_sr_iff in Hr. destruct Hr as [(_ & _ & Hsame & _) ->].
  destruct sp as [|q0 rest]; [destruct Hq|].
  unfold keep_shift. rewrite (Hsame q q0 Hq (or_introl eq_refl)).
  destruct (Nat.ltb_spec (prec q0) (prec p)), (Nat.ltb_spec (prec p) (prec q0)),
    (Nat.eqb_spec (prec q0) (prec p)); try lia; reflexivity.
Qed.

Theorem resolve_meets_doc_levels cell tgt sp p r q :
  sr_cell cell tgt sp p -> resolve cell = Some r -> In q sp ->
  (prec p < prec q -> r = [CShift tgt sp]) /\
  (prec q < prec p -> r = [CReduce p]).
Proof.
  intros Hc Hr Hq. rewrite (resolve_law _ _ _ _ _ _ Hc Hr Hq). split; intros Hlt.
  - apply Nat.ltb_lt in Hlt. rewrite Hlt. reflexivity.
  - destruct (Nat.ltb_spec (prec p) (prec q)), (Nat.eqb_spec (prec q) (prec p)); try lia.
    reflexivity.
Qed.

(* the general equal-level law: the shift survives only in the situation of
   [resolve_right_single] *)
Theorem resolve_equal_levels cell tgt sp p r q :
  sr_cell cell tgt sp p -> resolve cell = Some r -> In q sp -> prec q = prec p ->
  r = if match sp with [q0] => (q0 =? p) && assoc_right q0 | _ => false end
      then [CShift tgt sp] else [CReduce p].
Proof.
  intros Hc Hr Hq Heq. rewrite (resolve_law _ _ _ _ _ _ Hc Hr Hq).
  rewrite Heq, Nat.ltb_irrefl, Nat.eqb_refl. reflexivity.
Qed.

(* equal levels, reduced production not @right : left grouping *)
Theorem resolve_left cell tgt sp p r q :
  sr_cell cell tgt sp p -> resolve cell = Some r -> In q sp ->
  prec q = prec p -> assoc_right p = false ->
  r = [CReduce p].
Proof.
  intros Hc Hr Hq Heq Hleft. rewrite (resolve_equal_levels _ _ _ _ _ _ Hc Hr Hq Heq).
  destruct sp as [|q0 [|]]; try reflexivity.
  destruct (Nat.eqb_spec q0 p) as [->|]; [rewrite Hleft|]; reflexivity.
Qed.

Theorem resolve_right_single cell tgt p :
  sr_cell cell tgt [p] p -> 0 < prec p -> assoc_right p = true ->
  resolve cell = Some [CShift tgt [p]].
Proof.
  intros Hc Hpos Hright. rewrite (resolve_sr_cell _ _ _ _ Hc).
  unfold resolve_sr, ResolveModel.resolve_sr. cbn [all_same ResolveModel.all_same forallb negb].
  rewrite Nat.eqb_refl. cbn [negb].
  destruct (prec p =? 0) eqn:H0; [apply Nat.eqb_eq in H0; lia|]. cbn [orb].
  rewrite Nat.ltb_irrefl. rewrite Nat.eqb_refl, Hright. reflexivity.
Qed.

End Proofs.

(* known finding D5: equal levels, @right, but the state has two items
   e -> e . '^' e with different lookaheads, so AddShift listed production 4
   twice: the REDUCE is kept, i.e. 2^3^2 groups as (2^3)^2. *)
Example resolve_right_refuted :
  ex_prec 4 = 3 /\ ex_right 4 = true /\
  resolve ex_prec ex_right ex_rule [CShift 9 [4; 4]; CReduce 4] = Some [CReduce 4] /\
  resolve ex_prec ex_right ex_rule [CShift 9 [4]; CReduce 4] = Some [CShift 9 [4]].
Proof. vm_compute. repeat split. Qed.

Theorem resolve_right_duplicate prec assoc_right rule_of tgt p :
  0 < prec p ->
  resolve prec assoc_right rule_of [CShift tgt [p; p]; CReduce p] = Some [CReduce p].
Proof.
  intros Hpos. cbn [resolve]. unfold resolve_sr.
  cbn [all_same forallb]. rewrite !Nat.eqb_refl. cbn [andb negb].
  destruct (prec p =? 0) eqn:H0; [apply Nat.eqb_eq in H0; lia|]. cbn [orb].
  rewrite Nat.ltb_irrefl. reflexivity.
Qed.

Print Assumptions resolve_only_sr_same_rule.
Print Assumptions spanning_rules_conflict.
Print Assumptions unqualified_conflict.
Print Assumptions resolve_meets_doc_levels.
Print Assumptions resolve_left.
Print Assumptions resolve_right_single.
Print Assumptions resolve_equal_levels.
Print Assumptions resolve_right_refuted.
Print Assumptions resolve_right_duplicate.
