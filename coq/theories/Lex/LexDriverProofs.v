(* The simplelexer driver mirror: the position part (rest, offset) evolves
   independently of the state machine, and two state machines related by a
   bisimulation give equal read_token / lex_all results. *)
From Coq Require Import List ZArith Lia Bool.
From Lox Require Import Base.ListFacts Lex.LexRuntime.
Import ListNotations.
Local Open Scope Z_scope.

Definition char_of (rest : list (Z * Z)) : Z :=
  match rest with [] => -1 | (r, _) :: _ => r end.

Definition consume_ro (rest : list (Z * Z)) (off : Z) : list (Z * Z) * Z :=
  match rest with [] => ([], off) | (_, w) :: rest' => (rest', off + w) end.

Fixpoint skip_ro (fuel : nat) (rest : list (Z * Z)) (off : Z) : list (Z * Z) * Z :=
  match fuel with
  | O => (rest, off)
  | S f =>
    if (char_of rest =? 10) || (char_of rest =? -1) then (rest, off)
    else skip_ro f (fst (consume_ro rest off)) (snd (consume_ro rest off))
  end.

Lemma lx_char_eq : forall M a rest off, lx_char M (Build_lexer M a rest off) = char_of rest.
Proof. reflexivity. Qed.

Lemma lx_consume_eq : forall M a rest off,
  lx_consume M (Build_lexer M a rest off) =
  Build_lexer M a (fst (consume_ro rest off)) (snd (consume_ro rest off)).
Proof. intros M a [|[r w] rest] off; reflexivity. Qed.

Lemma skip_line_eq : forall M f a rest off,
  skip_line M f (Build_lexer M a rest off) =
  Build_lexer M a (fst (skip_ro f rest off)) (snd (skip_ro f rest off)).
Proof.
  intros M. induction f as [|f IH]; intros a rest off; cbn [skip_line skip_ro]; [reflexivity|].
  rewrite lx_char_eq.
  destruct ((char_of rest =? 10) || (char_of rest =? -1)); [reflexivity|].
  rewrite lx_consume_eq. apply IH.
Qed.

Lemma consume_ro_forall : forall (P : Z * Z -> Prop) rest off,
  Forall P rest -> Forall P (fst (consume_ro rest off)).
Proof.
  intros P [|[r w] rest] off H; cbn [consume_ro fst]; [constructor|].
  inversion H; assumption.
Qed.

Lemma skip_ro_forall : forall (P : Z * Z -> Prop) f rest off,
  Forall P rest -> Forall P (fst (skip_ro f rest off)).
Proof.
  intros P. induction f as [|f IH]; intros rest off H; cbn [skip_ro]; [exact H|].
  destruct ((char_of rest =? 10) || (char_of rest =? -1)); [exact H|].
  apply IH. apply consume_ro_forall. exact H.
Qed.

Lemma existsb_rev_cons : forall (f : seg -> bool) s acc,
  existsb f (rev (s :: acc)) = f s || existsb f (rev acc).
Proof.
  intros f s acc. cbn [rev]. rewrite existsb_app. cbn [existsb].
  rewrite orb_false_r. apply orb_comm.
Qed.

(* where an error leaves the reader: past the end of the line *)
Definition error_ro (rest : list (Z * Z)) (off : Z) : list (Z * Z) * Z :=
  consume_ro (fst (skip_ro (S (length rest)) rest off)) (snd (skip_ro (S (length rest)) rest off)).

Lemma error_ro_forall : forall (P : Z * Z -> Prop) rest off,
  Forall P rest -> Forall P (fst (error_ro rest off)).
Proof. intros P rest off H. apply consume_ro_forall, skip_ro_forall, H. Qed.

Lemma code_cases : forall c,
  c = lexConsume \/ c = lexAccept \/ c = lexDiscard \/ c = lexTryAgain \/ c = lexEOF \/
  ((c =? lexConsume) = false /\ (c =? lexAccept) = false /\ (c =? lexDiscard) = false /\
   (c =? lexTryAgain) = false /\ (c =? lexEOF) = false).
Proof. intros c. unfold lexConsume, lexAccept, lexDiscard, lexTryAgain, lexEOF. lia. Qed.

Section Step.
Variable M : Type.
Variable push : M -> Z -> option (Z * M).
Variable tok : M -> Z.
Variable reset : M -> M.

Lemma read_token_S : forall f a rest off start acc,
  read_token M push tok reset (S f) (Build_lexer M a rest off) start acc =
  let st := match start with Some s => s | None => off end in
  match push a (char_of rest) with
  | None => RCrash M
  | Some (c, a') =>
    if c =? lexConsume then
      read_token M push tok reset f
        (Build_lexer M a' (fst (consume_ro rest off)) (snd (consume_ro rest off))) (Some st) acc
    else if c =? lexAccept then RTok M (rev (SegTok (tok a') st off :: acc)) (Build_lexer M a' rest off)
    else if c =? lexDiscard then
      read_token M push tok reset f (Build_lexer M a' rest off) None (SegDiscard st off :: acc)
    else if c =? lexTryAgain then read_token M push tok reset f (Build_lexer M a' rest off) (Some st) acc
    else if c =? lexEOF then RTok M (rev (SegEOF st off :: acc)) (Build_lexer M a' rest off)
    else RTok M (rev (SegError st (snd (error_ro rest off)) :: acc))
              (Build_lexer M (reset a') (fst (error_ro rest off)) (snd (error_ro rest off)))
  end.
Proof.
  intros f a rest off start acc. cbn [read_token]. rewrite lx_char_eq. cbn [lx_sm lx_rest lx_off].
  destruct (push a (char_of rest)) as [[c a']|]; [|reflexivity].
  rewrite skip_line_eq, !lx_consume_eq. reflexivity.
Qed.

(* C is what a crash means *)
Lemma lex_all_lift : forall (Inv : lexer M -> Prop) (Q : list seg -> Prop) (C : Prop),
  (forall s1 s2, Q s1 -> Q s2 -> Q (s1 ++ s2)) ->
  (forall fuel x, Inv x ->
     match read_token M push tok reset fuel x None [] with
     | RTok _ segs x' => Q segs /\ Inv x'
     | RCrash _ => C
     | RFuel _ => True
     end) ->
  forall fuel x acc, Inv x -> Q acc ->
  match lex_all M push tok reset fuel x acc with
  | LDone segs => Q segs
  | LCrash => C
  | LFuel => True
  end.
Proof.
  intros Inv Q C Happ Hrt. induction fuel as [|f IH]; intros x acc Hx Hacc; [exact I|].
  cbn [lex_all]. specialize (Hrt (S f) x Hx).
  destruct (read_token M push tok reset (S f) x None []) as [segs x'| |]; [|exact Hrt|exact I].
  destruct Hrt as [Hsegs Hx'].
  destruct (existsb is_eof_seg segs); [apply Happ; assumption|].
  apply IH; [exact Hx'|apply Happ; assumption].
Qed.

End Step.

Section Bisim.
Variables MA MB : Type.
Variable pushA : MA -> Z -> option (Z * MA).
Variable tokA : MA -> Z.
Variable resetA : MA -> MA.
Variable pushB : MB -> Z -> option (Z * MB).
Variable tokB : MB -> Z.
Variable resetB : MB -> MB.
Variables Rel RelW : MA -> MB -> Prop.
Variable okr : Z -> Prop.

(* Rel relates the machines while a call of ReadToken goes on; after an error
   or at EOF only RelW is left, and Reset brings Rel back *)
Hypothesis okr_eof : okr (-1).
Hypothesis relw_tok : forall a b, RelW a b -> tokA a = tokB b.
Hypothesis relw_reset : forall a b, RelW a b -> Rel (resetA a) (resetB b).
Hypothesis step : forall a b r, Rel a b -> okr r ->
  match pushA a r, pushB b r with
  | None, None => True
  | Some (c, a'), Some (c', b') =>
    c = c' /\ RelW a' b' /\ (c <> lexError -> c <> lexEOF -> Rel a' b')
  | _, _ => False
  end.

Definition lxrel (x : lexer MA) (y : lexer MB) : Prop :=
  Rel (lx_sm x) (lx_sm y) /\ lx_rest x = lx_rest y /\ lx_off x = lx_off y /\
  Forall (fun p => okr (fst p)) (lx_rest x).

Definition rrel (ra : rres MA) (rb : rres MB) : Prop :=
  match ra, rb with
  | RTok _ sa xa, RTok _ sb xb => sa = sb /\ (existsb is_eof_seg sa = true \/ lxrel xa xb)
  | RCrash _, RCrash _ => True
  | RFuel _, RFuel _ => True
  | _, _ => False
  end.

Lemma okr_char : forall rest, Forall (fun p => okr (fst p)) rest -> okr (char_of rest).
Proof.
  intros [|[r w] rest] H; cbn [char_of]; [exact okr_eof|].
  inversion H; subst. assumption.
Qed.

Lemma lxrel_mk : forall a b rest off,
  Rel a b -> Forall (fun p => okr (fst p)) rest ->
  lxrel (Build_lexer MA a rest off) (Build_lexer MB b rest off).
Proof. intros a b rest off Hab Hok. repeat split; assumption. Qed.

Lemma read_token_bisim : forall fuel x y start acc,
  lxrel x y ->
  rrel (read_token MA pushA tokA resetA fuel x start acc)
       (read_token MB pushB tokB resetB fuel y start acc).
Proof.
  induction fuel as [|f IH]; intros [a rest off] [b rest' off'] start acc Hxy; [exact I|].
  destruct Hxy as [Hrel [Hr [Ho Hok]]]. cbn [lx_sm lx_rest lx_off] in *. subst rest' off'.
  rewrite !read_token_S. cbv zeta.
  pose proof (step a b (char_of rest) Hrel (okr_char rest Hok)) as Hstep.
  destruct (pushA a (char_of rest)) as [[c a']|]; destruct (pushB b (char_of rest)) as [[c' b']|];
    try contradiction; [|exact I].
  destruct Hstep as [<- [Hw Hcont]]. rewrite (relw_tok _ _ Hw).
  destruct (code_cases c) as [->|[->|[->|[->|[->|(E0 & E1 & E2 & E3 & E4)]]]]];
    [| | | | |rewrite E0, E1, E2, E3, E4]; cbn [Z.eqb Pos.eqb lexConsume lexAccept lexDiscard lexTryAgain lexEOF].
  - apply IH, lxrel_mk; [apply Hcont; discriminate|apply consume_ro_forall, Hok].
  - split; [reflexivity|]. right. apply lxrel_mk; [apply Hcont; discriminate|exact Hok].
  - apply IH, lxrel_mk; [apply Hcont; discriminate|exact Hok].
  - apply IH, lxrel_mk; [apply Hcont; discriminate|exact Hok].
  - split; [reflexivity|]. left. rewrite existsb_rev_cons. reflexivity.
  - split; [reflexivity|]. right. apply lxrel_mk; [apply relw_reset, Hw|apply error_ro_forall, Hok].
Qed.

Lemma lex_all_bisim : forall fuel x y acc,
  lxrel x y ->
  lex_all MA pushA tokA resetA fuel x acc = lex_all MB pushB tokB resetB fuel y acc.
Proof.
  induction fuel as [|f IH]; intros x y acc Hxy; [reflexivity|].
  cbn [lex_all].
  pose proof (read_token_bisim (S f) x y None [] Hxy) as H.
  destruct (read_token MA pushA tokA resetA (S f) x None []) as [sa xa| |];
    destruct (read_token MB pushB tokB resetB (S f) y None []) as [sb xb| |];
    cbn [rrel] in H; try contradiction; try reflexivity.
  destruct H as [<- H].
  destruct (existsb is_eof_seg sa) eqn:E; [reflexivity|].
  destruct H as [H|H]; [discriminate|]. apply IH. exact H.
Qed.

Lemma lex_input_bisim : forall initA initB fuel inp,
  Rel initA initB -> (forall r w, In (r, w) inp -> okr r) ->
  lex_input MA pushA tokA resetA initA fuel inp = lex_input MB pushB tokB resetB initB fuel inp.
Proof.
  intros initA initB fuel inp Hinit Hinp. unfold lex_input.
  apply lex_all_bisim, lxrel_mk; [exact Hinit|apply Forall_fst, Hinp].
Qed.

End Bisim.
