(* Reference automaton 2: Brzozowski derivatives of the lexer RULES.  A state
   is the list of the derivatives of every rule of the mode, in declaration
   order.  Executable model only (extracted to OCaml); the theorems are in
   RegexProofs.v / RegexProofs2.v / RegexProofs3.v. *)
From Coq Require Import List ZArith Bool Arith.
From Lox Require Import Lex.LexAuto.
Import ListNotations.
Local Open Scope Z_scope.

Inductive re :=
| REmpty
| REps
| RCls (rs : list (Z * Z))      (* one code point lying in one of the closed ranges *)
| RCat (a b : re)
| RAlt (a b : re)
| RStar (a : re).

Record rule := { r_re : re; r_acts : list (Z * Z); r_ng : bool }.

(* ---- a total order on regexes (only [= Eq] matters for correctness; the
   order itself just keeps alternatives in a canonical sequence) ---- *)

Fixpoint rs_cmp (a b : list (Z * Z)) : comparison :=
  match a, b with
  | [], [] => Eq
  | [], _ :: _ => Lt
  | _ :: _, [] => Gt
  | p :: a', q :: b' =>
    match fst p ?= fst q with
    | Eq => match snd p ?= snd q with Eq => rs_cmp a' b' | c => c end
    | c => c
    end
  end.

Definition re_tag (r : re) : nat :=
  match r with
  | REmpty => 0 | REps => 1 | RCls _ => 2 | RCat _ _ => 3 | RAlt _ _ => 4 | RStar _ => 5
  end%nat.

Fixpoint re_cmp (a b : re) : comparison :=
  match a, b with
  | RCls x, RCls y => rs_cmp x y
  | RCat a1 a2, RCat b1 b2 => match re_cmp a1 b1 with Eq => re_cmp a2 b2 | c => c end
  | RAlt a1 a2, RAlt b1 b2 => match re_cmp a1 b1 with Eq => re_cmp a2 b2 | c => c end
  | RStar a1, RStar b1 => re_cmp a1 b1
  | _, _ => Nat.compare (re_tag a) (re_tag b)
  end.

Definition re_eqb (a b : re) : bool :=
  match re_cmp a b with Eq => true | _ => false end.

Fixpoint st_eqb (a b : list re) : bool :=
  match a, b with
  | [], [] => true
  | x :: a', y :: b' => re_eqb x y && st_eqb a' b'
  | _, _ => false
  end.

(* ---- smart constructors ---- *)

Definition mk_cat (a b : re) : re :=
  match a, b with
  | REmpty, _ => REmpty
  | _, REmpty => REmpty
  | REps, _ => b
  | _, REps => a
  | _, _ => RCat a b
  end.

(* insert a non-alternative [a] into the right-nested ordered alternative [b] *)
Fixpoint alt_ins (a b : re) : re :=
  match b with
  | REmpty => a
  | RAlt b1 b2 =>
    match re_cmp a b1 with
    | Eq => b
    | Lt => RAlt a b
    | Gt => RAlt b1 (alt_ins a b2)
    end
  | _ =>
    match re_cmp a b with
    | Eq => b
    | Lt => RAlt a b
    | Gt => RAlt b a
    end
  end.

(* alternation modulo associativity, commutativity, idempotence, unit REmpty *)
Fixpoint mk_alt (a b : re) {struct a} : re :=
  match a with
  | REmpty => b
  | RAlt a1 a2 => mk_alt a1 (mk_alt a2 b)
  | _ => alt_ins a b
  end.

(* ---- derivatives ---- *)

Definition in1 (p : Z * Z) (c : Z) : bool := (fst p <=? c) && (c <=? snd p).
Definition in_cls (c : Z) (rs : list (Z * Z)) : bool := existsb (fun p => in1 p c) rs.

Fixpoint nullable (r : re) : bool :=
  match r with
  | REmpty => false
  | REps => true
  | RCls _ => false
  | RCat a b => nullable a && nullable b
  | RAlt a b => nullable a || nullable b
  | RStar _ => true
  end.

Fixpoint deriv (c : Z) (r : re) : re :=
  match r with
  | REmpty => REmpty
  | REps => REmpty
  | RCls rs => if in_cls c rs then REps else REmpty
  | RCat a b =>
    if nullable a then mk_alt (mk_cat (deriv c a) b) (deriv c b)
    else mk_cat (deriv c a) b
  | RAlt a b => mk_alt (deriv c a) (deriv c b)
  | RStar a => mk_cat (deriv c a) (RStar a)
  end.

(* after the smart constructors, the empty language is literally REmpty *)
Definition is_empty (r : re) : bool :=
  match r with REmpty => true | _ => false end.

(* well-formed rule body: no REmpty, classes non-empty, ranges inside Unicode *)
Fixpoint wf_reb (r : re) : bool :=
  match r with
  | REmpty => false
  | REps => true
  | RCls rs =>
    match rs with [] => false | _ => true end &&
    forallb (fun p => (0 <=? fst p) && (fst p <=? snd p) && (snd p <=? 1114111)) rs
  | RCat a b => wf_reb a && wf_reb b
  | RAlt a b => wf_reb a && wf_reb b
  | RStar a => wf_reb a
  end.

Definition wf_rulesb (rules : list rule) : bool := forallb (fun r => wf_reb (r_re r)) rules.

(* ---- the partition of 0..1114111 seen by one derivative step ---- *)

(* the classes a derivative of r looks at *)
Fixpoint heads (r : re) : list (Z * Z) :=
  match r with
  | REmpty => []
  | REps => []
  | RCls rs => rs
  | RCat a b => if nullable a then heads a ++ heads b else heads a
  | RAlt a b => heads a ++ heads b
  | RStar a => heads a
  end.

(* strictly increasing list of points *)
Fixpoint ins_pt (x : Z) (l : list Z) : list Z :=
  match l with
  | [] => [x]
  | y :: l' => if x <? y then x :: l else if x =? y then l else y :: ins_pt x l'
  end.

Definition in_range (p : Z) : bool := (0 <=? p) && (p <=? 1114111).
Definition add_pt (p : Z) (l : list Z) : list Z := if in_range p then ins_pt p l else l.

Definition st_points (st : list re) : list Z :=
  fold_right (fun p acc => add_pt (fst p) (add_pt (snd p + 1) acc)) [0] (flat_map heads st).

Fixpoint atoms (pts : list Z) : list (Z * Z) :=
  match pts with
  | [] => []
  | p :: rest =>
    match rest with
    | [] => [(p, 1114111)]
    | q :: _ => (p, q - 1) :: atoms rest
    end
  end.

Fixpoint build (st : list re) (ats : list (Z * Z)) : list (Z * Z * list re) :=
  match ats with
  | [] => []
  | a :: rest =>
    let st' := map (deriv (fst a)) st in
    if forallb is_empty st' then build st rest else (fst a, snd a, st') :: build st rest
  end.

(* ---- the view ---- *)

Fixpoint first_acts (rules : list rule) (st : list re) : list (Z * Z) :=
  match rules, st with
  | r :: rs, d :: ds => if nullable d then r_acts r else first_acts rs ds
  | _, _ => []
  end.

Fixpoint any_ng (rules : list rule) (st : list re) : bool :=
  match rules, st with
  | r :: rs, d :: ds => (r_ng r && nullable d) || any_ng rs ds
  | _, _ => false
  end.

Definition re_view (rules : list rule) (st : list re) : view (list re) :=
  {| v_flag := any_ng rules st;
     v_trans := build st (atoms (st_points st));
     v_acts := first_acts rules st |}.

Definition re_auto (modes : list (list rule)) (m : nat) (st : list re) : option (view (list re)) :=
  Some (re_view (nth m modes []) st).

Definition re_start (modes : list (list rule)) (m : nat) : list re :=
  map r_re (nth m modes []).

(* ---- conveniences for writing rules ---- *)

Fixpoint lit (cs : list Z) : re :=
  match cs with
  | [] => REps
  | c :: cs' => match cs' with [] => RCls [(c, c)] | _ => RCat (RCls [(c, c)]) (lit cs') end
  end.

Definition re_plus (a : re) : re := RCat a (RStar a).
Definition re_opt (a : re) : re := RAlt a REps.
