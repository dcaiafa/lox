(* The lexer over raw bytes: the reference driver reads its input with
   bytes.Reader.ReadRune, modelled by Utf8Model.decode_all.  The lexer theorems
   hold over ALL byte strings (valid, invalid and truncated UTF-8 alike): the
   decoder's own theorem discharges the range hypothesis on code points, and
   "every character" becomes "every byte". *)
From Coq Require Import List ZArith Lia.
From Lox Require Import Lex.LexRuntime Lex.LexAuto Lex.LexEquiv Lex.LexEquivProofs
  Lex.LexTotalProofs Lex.Utf8Model Lex.Utf8Proofs.
Import ListNotations.
Local Open Scope Z_scope.

Definition lex_bytes (modes : list (list Z)) (fuel : nat) (bs : list Z) :=
  lex_tables modes fuel (decode_all bs).

Lemma decode_all_in_range bs r w : In (r, w) (decode_all bs) -> 0 <= r <= 1114111.
Proof.
  intros H. pose proof (decode_all_runes_in_range bs) as HF.
  rewrite Forall_forall in HF. unfold runes_of in HF.
  apply (HF r). change r with (fst (r, w)). apply in_map. exact H.
Qed.

Theorem lex_bytes_total modes bs : modes_wf modes = true ->
  exists segs, lex_bytes modes (3 * length (decode_all bs) + 1) bs = LDone segs.
Proof.
  intros Hwf. apply lex_total; [exact Hwf|].
  intros r w H. apply decode_all_in_range in H. lia.
Qed.

Theorem lex_bytes_tiling modes fuel bs segs :
  lex_bytes modes fuel bs = LDone segs ->
  let n := Z.of_nat (length bs) in
  exists pre, segs = pre ++ [SegEOF n n] /\ Forall noneof pre /\ tiles 0 pre n.
Proof.
  intros H n. subst n. rewrite <- (proj1 (decode_all_total_gen bs)).
  apply (lex_exact_tiling_any modes fuel); [|exact H].
  intros r w Hin. apply decode_all_in_range in Hin. lia.
Qed.

Theorem lex_bytes_equiv :
  forall (R : Type) (reqb : R -> R -> bool) (modes : list (list Z))
         (RA : nat -> R -> option (view R)) (rstart : nat -> R) (visited : list (pair R)),
    (forall a b, reqb a b = true <-> a = b) ->
    closed R reqb modes RA rstart visited = true ->
    modes_wf modes = true ->
    forall fuel bs,
      lex_bytes modes fuel bs = g_lex R RA rstart (length modes) fuel (decode_all bs).
Proof.
  intros R reqb modes RA rstart visited Heq Hc Hwf fuel bs.
  apply (equiv_lex R reqb modes RA rstart visited Heq Hc Hwf).
  intros r w H. exact (decode_all_in_range _ _ _ H).
Qed.

Print Assumptions lex_bytes_total.
Print Assumptions lex_bytes_tiling.
Print Assumptions lex_bytes_equiv.
