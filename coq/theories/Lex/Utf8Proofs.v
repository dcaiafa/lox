(* Go's utf8.DecodeRune / utf8.AppendRune (Utf8Model.v).  Every result of
   decode_rune is a row of Table 3-7 or the error ([shape]); widths, scalar
   values and the round trip with encode_rune are read off the rows. *)
From Coq Require Import List ZArith Lia Bool.
From Lox Require Import Lex.Utf8Model.
Import ListNotations.
Local Open Scope Z_scope.

(* the expected values are the output of a Go program using
   bytes.Reader.ReadRune / utf8.AppendRune (go 1.23) *)

Example ex_ascii : decode_all [65] = [(65, 1)].
Proof. vm_compute. reflexivity. Qed.
Example ex_ascii3 : decode_all [104; 105; 33] = [(104, 1); (105, 1); (33, 1)].
Proof. vm_compute. reflexivity. Qed.
Example ex_e_acute : decode_all [195; 169] = [(233, 2)].
Proof. vm_compute. reflexivity. Qed.
Example ex_euro : decode_all [226; 130; 172] = [(8364, 3)].
Proof. vm_compute. reflexivity. Qed.
Example ex_grin : decode_all [240; 159; 152; 128] = [(128512, 4)].
Proof. vm_compute. reflexivity. Qed.
Example ex_overlong : decode_all [192; 128] = [(65533, 1); (65533, 1)].
Proof. vm_compute. reflexivity. Qed.
Example ex_surrogate :
  decode_all [237; 160; 128] = [(65533, 1); (65533, 1); (65533, 1)].
Proof. vm_compute. reflexivity. Qed.
Example ex_truncated : decode_all [226; 130] = [(65533, 1); (65533, 1)].
Proof. vm_compute. reflexivity. Qed.
Example ex_lone_ff : decode_all [255] = [(65533, 1)].
Proof. vm_compute. reflexivity. Qed.
Example ex_above_max :
  decode_all [244; 144; 128; 128] =
  [(65533, 1); (65533, 1); (65533, 1); (65533, 1)].
Proof. vm_compute. reflexivity. Qed.
Example ex_max : decode_all [244; 143; 191; 191] = [(1114111, 4)].
Proof. vm_compute. reflexivity. Qed.
Example ex_d7ff : decode_all [237; 159; 191] = [(55295, 3)].
Proof. vm_compute. reflexivity. Qed.
Example ex_overlong3 :
  decode_all [224; 159; 191] = [(65533, 1); (65533, 1); (65533, 1)].
Proof. vm_compute. reflexivity. Qed.
Example ex_min3 : decode_all [224; 160; 128] = [(2048, 3)].
Proof. vm_compute. reflexivity. Qed.
Example ex_overlong4 :
  decode_all [240; 143; 191; 191] =
  [(65533, 1); (65533, 1); (65533, 1); (65533, 1)].
Proof. vm_compute. reflexivity. Qed.
Example ex_min4 : decode_all [240; 144; 128; 128] = [(65536, 4)].
Proof. vm_compute. reflexivity. Qed.
Example ex_mixed :
  decode_all [97; 226; 130; 65; 195; 169; 128; 240; 159; 152] =
  [(97, 1); (65533, 1); (65533, 1); (65, 1); (233, 2); (65533, 1);
   (65533, 1); (65533, 1); (65533, 1)].
Proof. vm_compute. reflexivity. Qed.
Example ex_real_fffd : decode_all [239; 191; 189] = [(65533, 3)].
Proof. vm_compute. reflexivity. Qed.
Example ex_min2 : decode_all [194; 128] = [(128, 2)].
Proof. vm_compute. reflexivity. Qed.
Example ex_max2 : decode_all [223; 191] = [(2047, 2)].
Proof. vm_compute. reflexivity. Qed.
Example ex_nul : decode_all [0; 127] = [(0, 1); (127, 1)].
Proof. vm_compute. reflexivity. Qed.
Example ex_empty : decode_all [] = [] /\ decode_rune [] = None.
Proof. vm_compute. split; reflexivity. Qed.

Example ex_encode :
  map encode_rune
    [0; 65; 127; 128; 233; 2047; 2048; 8364; 55295; 55296; 57343; 57344;
     65533; 65535; 65536; 128512; 1114111; 1114112; -1] =
  [[0]; [65]; [127]; [194; 128]; [195; 169]; [223; 191]; [224; 160; 128];
   [226; 130; 172]; [237; 159; 191]; [239; 191; 189]; [239; 191; 189];
   [238; 128; 128]; [239; 191; 189]; [239; 191; 191]; [240; 144; 128; 128];
   [240; 159; 152; 128]; [244; 143; 191; 191]; [239; 191; 189];
   [239; 191; 189]].
Proof. vm_compute. reflexivity. Qed.

(* checksums h := (h*31 + v) land 0x3FFFFFFF computed by the same Go program,
   v = r*8 + w over the ReadRune sequence of
     - all 4-byte strings with the first byte among 24 boundary values and the
       other bytes among 11 boundary values,
     - all 65536 2-byte strings;
   v = the bytes of AppendRune(nil, r) for r = -3, 94, .. (step 97) up to
   0x110003 *)
Definition hash_out (h : Z) (l : list (Z * Z)) : Z :=
  fold_left (fun h rw => Z.land (h * 31 + fst rw * 8 + snd rw) 1073741823) l h.

Definition boundary_bytes : list Z :=
  [0; 127; 128; 143; 144; 159; 160; 191; 192; 193; 194; 223; 224; 225; 236;
   237; 238; 239; 240; 241; 243; 244; 245; 255].
Definition tail_bytes : list Z :=
  [65; 127; 128; 143; 144; 159; 160; 191; 192; 226; 244].

Definition checksum4 : Z :=
  fold_left (fun h a => fold_left (fun h b => fold_left (fun h c =>
    fold_left (fun h d => hash_out h (decode_all [a; b; c; d]))
      tail_bytes h) tail_bytes h) tail_bytes h) boundary_bytes 0.

Definition all_bytes : list Z := map Z.of_nat (seq 0 256).

Definition checksum2 : Z :=
  fold_left (fun h a => fold_left (fun h b => hash_out h (decode_all [a; b]))
    all_bytes h) all_bytes 0.

Definition checksum_enc : Z :=
  fold_left (fun h k =>
    fold_left (fun h b => Z.land (h * 31 + b) 1073741823)
      (encode_rune (-3 + 97 * Z.of_nat k)) h) (seq 0 (Z.to_nat 11486)) 0.

Example ex_checksum4 : checksum4 = 982478160.
Proof. vm_compute. reflexivity. Qed.
Example ex_checksum2 : checksum2 = 680173056.
Proof. vm_compute. reflexivity. Qed.
(* For the kernel and coqchk (no bytecode machine) the fold is restated to
   take fewer steps: the counter is kept in Z ([Z.of_nat k] costs k steps for
   each unary k of [seq]), and [/], [mod] become the shifts and masks Go's
   AppendRune writes (byte(r>>6), byte(r)&maskx, ...). *)
Fixpoint count_up {A} (F : A -> Z -> A) (n : nat) (z : Z) (h : A) : A :=
  match n with O => h | S n' => count_up F n' (z + 1) (F h z) end.

Lemma fold_left_seq_Z {A} (F : A -> nat -> A) (G : A -> Z -> A) :
  (forall h k, F h k = G h (Z.of_nat k)) ->
  forall n a h, fold_left F (seq a n) h = count_up G n (Z.of_nat a) h.
Proof.
  intros FG. induction n as [|n IH]; intros a h; cbn [seq fold_left count_up];
    [reflexivity|].
  rewrite IH, FG. f_equal. lia.
Qed.

Definition enc3_bits (r : Z) : list Z :=
  [224 + Z.shiftr r 12; 128 + Z.land (Z.shiftr r 6) 63; 128 + Z.land r 63].

Definition encode_rune_bits (r : Z) : list Z :=
  if (0 <=? r) && (r <=? rune1Max) then [r]
  else if (0 <=? r) && (r <=? rune2Max) then
    [192 + Z.shiftr r 6; 128 + Z.land r 63]
  else if (r <? 0) || (MaxRune <? r)
          || ((surrogateMin <=? r) && (r <=? surrogateMax)) then
    enc3_bits RuneError
  else if r <=? rune3Max then enc3_bits r
  else [240 + Z.shiftr r 18; 128 + Z.land (Z.shiftr r 12) 63;
        128 + Z.land (Z.shiftr r 6) 63; 128 + Z.land r 63].

Lemma encode_rune_bits_eq r : encode_rune_bits r = encode_rune r.
Proof.
  unfold encode_rune_bits, enc3_bits, encode_rune, enc3.
  change 63 with (Z.ones 6).
  rewrite !Z.land_ones, !Z.shiftr_div_pow2 by lia. reflexivity.
Qed.

Example ex_checksum_enc : checksum_enc = 106448942.
Proof.
  unfold checksum_enc.
  rewrite (fold_left_seq_Z _ (fun h z =>
    fold_left (fun h b => Z.land (h * 31 + b) 1073741823)
      (encode_rune_bits (-3 + 97 * z)) h))
    by (intros; rewrite encode_rune_bits_eq; reflexivity).
  vm_compute. reflexivity.
Qed.


Lemma first_spec b :
  (0 <= b < 128 /\ first b = as_) \/
  ((b < 0 \/ 128 <= b < 194 \/ 245 <= b) /\ first b = xx) \/
  (194 <= b < 224 /\ first b = s1) \/
  (b = 224 /\ first b = s2) \/
  ((225 <= b < 237 \/ 238 <= b < 240) /\ first b = s3) \/
  (b = 237 /\ first b = s4) \/
  (b = 240 /\ first b = s5) \/
  (241 <= b < 244 /\ first b = s6) \/
  (b = 244 /\ first b = s7).
Proof.
  unfold first.
  destruct (Z.ltb_spec b 0); [right; left; lia|].
  destruct (Z.ltb_spec b 128); [left; lia|].
  destruct (Z.ltb_spec b 194); [right; left; lia|].
  destruct (Z.ltb_spec b 224); [do 2 right; left; lia|].
  destruct (Z.eqb_spec b 224); [do 3 right; left; lia|].
  destruct (Z.ltb_spec b 237); [do 4 right; left; lia|].
  destruct (Z.eqb_spec b 237); [do 5 right; left; lia|].
  destruct (Z.ltb_spec b 240); [do 4 right; left; lia|].
  destruct (Z.eqb_spec b 240); [do 6 right; left; lia|].
  destruct (Z.ltb_spec b 244); [do 7 right; left; lia|].
  destruct (Z.eqb_spec b 244); [do 8 right; lia|].
  right; left; lia.
Qed.

(* the classes of more than one byte value ([first] of 224, 237, 240, 244
   computes) *)
Lemma first_as b : 0 <= b < 128 -> first b = as_.
Proof. pose proof (first_spec b). intuition lia. Qed.
Lemma first_s1 b : 194 <= b < 224 -> first b = s1.
Proof. pose proof (first_spec b). intuition lia. Qed.
Lemma first_s3 b : 225 <= b < 237 \/ 238 <= b < 240 -> first b = s3.
Proof. pose proof (first_spec b). intuition lia. Qed.
Lemma first_s6 b : 241 <= b < 244 -> first b = s6.
Proof. pose proof (first_spec b). intuition lia. Qed.


Definition dec2 (p0 : Z) (t0 : list Z) : Z * Z * list Z :=
  match t0 with
  | b1 :: t1 => if cont_bad b1 then err t0 else (rune2 p0 b1, 2, t1)
  | _ => err t0
  end.

Definition dec3 (lo hi p0 : Z) (t0 : list Z) : Z * Z * list Z :=
  match t0 with
  | b1 :: b2 :: t2 =>
    if (b1 <? lo) || (hi <? b1) then err t0
    else if cont_bad b2 then err t0 else (rune3 p0 b1 b2, 3, t2)
  | _ => err t0
  end.

Definition dec4 (lo hi p0 : Z) (t0 : list Z) : Z * Z * list Z :=
  match t0 with
  | b1 :: b2 :: b3 :: t3 =>
    if (b1 <? lo) || (hi <? b1) then err t0
    else if cont_bad b2 then err t0
    else if cont_bad b3 then err t0 else (rune4 p0 b1 b2 b3, 4, t3)
  | _ => err t0
  end.

Lemma step_as p0 t0 : decode_step as_ p0 t0 = (p0, 1, t0).
Proof. reflexivity. Qed.
Lemma step_xx p0 t0 : decode_step xx p0 t0 = err t0.
Proof. reflexivity. Qed.
Lemma step_s1 p0 t0 : decode_step s1 p0 t0 = dec2 p0 t0.
Proof. destruct t0 as [|b1 t1]; reflexivity. Qed.

Lemma step_s2 p0 t0 : decode_step s2 p0 t0 = dec3 160 191 p0 t0.
Proof. destruct t0 as [|b1 [|b2 t2]]; reflexivity. Qed.
Lemma step_s3 p0 t0 : decode_step s3 p0 t0 = dec3 128 191 p0 t0.
Proof. destruct t0 as [|b1 [|b2 t2]]; reflexivity. Qed.
Lemma step_s4 p0 t0 : decode_step s4 p0 t0 = dec3 128 159 p0 t0.
Proof. destruct t0 as [|b1 [|b2 t2]]; reflexivity. Qed.
Lemma step_s5 p0 t0 : decode_step s5 p0 t0 = dec4 144 191 p0 t0.
Proof. destruct t0 as [|b1 [|b2 [|b3 t3]]]; reflexivity. Qed.
Lemma step_s6 p0 t0 : decode_step s6 p0 t0 = dec4 128 191 p0 t0.
Proof. destruct t0 as [|b1 [|b2 [|b3 t3]]]; reflexivity. Qed.
Lemma step_s7 p0 t0 : decode_step s7 p0 t0 = dec4 128 143 p0 t0.
Proof. destruct t0 as [|b1 [|b2 [|b3 t3]]]; reflexivity. Qed.

Lemma cont_ok b : 128 <= b <= 191 -> cont_bad b = false.
Proof. unfold cont_bad, locb, hicb. lia. Qed.

Lemma dec2_ok p0 b1 t : 128 <= b1 <= 191 ->
  dec2 p0 (b1 :: t) = (rune2 p0 b1, 2, t).
Proof. intros H1. unfold dec2. rewrite cont_ok by exact H1. reflexivity. Qed.

Lemma dec3_ok lo hi p0 b1 b2 t : lo <= b1 <= hi -> 128 <= b2 <= 191 ->
  dec3 lo hi p0 (b1 :: b2 :: t) = (rune3 p0 b1 b2, 3, t).
Proof.
  intros H1 H2. unfold dec3. rewrite cont_ok by exact H2.
  replace ((b1 <? lo) || (hi <? b1)) with false by lia. reflexivity.
Qed.

Lemma dec4_ok lo hi p0 b1 b2 b3 t :
  lo <= b1 <= hi -> 128 <= b2 <= 191 -> 128 <= b3 <= 191 ->
  dec4 lo hi p0 (b1 :: b2 :: b3 :: t) = (rune4 p0 b1 b2 b3, 4, t).
Proof.
  intros H1 H2 H3. unfold dec4. rewrite !cont_ok by assumption.
  replace ((b1 <? lo) || (hi <? b1)) with false by lia. reflexivity.
Qed.

(* every result of decode_rune has one of five shapes (Table 3-7 of the
   Unicode standard, "well-formed UTF-8 byte sequences", plus the error) *)

Inductive shape : list Z -> Z -> Z -> list Z -> Prop :=
| sh_ascii p0 t : 0 <= p0 < 128 -> shape (p0 :: t) p0 1 t
| sh_err p0 t : p0 < 0 \/ 128 <= p0 -> shape (p0 :: t) RuneError 1 t
| sh_2 p0 b1 t :
    194 <= p0 < 224 -> 128 <= b1 <= 191 ->
    shape (p0 :: b1 :: t) (rune2 p0 b1) 2 t
| sh_3 p0 b1 b2 t :
    224 <= p0 < 240 -> 128 <= b1 <= 191 ->
    (p0 = 224 -> 160 <= b1) -> (p0 = 237 -> b1 <= 159) ->
    128 <= b2 <= 191 ->
    shape (p0 :: b1 :: b2 :: t) (rune3 p0 b1 b2) 3 t
| sh_4 p0 b1 b2 b3 t :
    240 <= p0 <= 244 -> 128 <= b1 <= 191 ->
    (p0 = 240 -> 144 <= b1) -> (p0 = 244 -> b1 <= 143) ->
    128 <= b2 <= 191 -> 128 <= b3 <= 191 ->
    shape (p0 :: b1 :: b2 :: b3 :: t) (rune4 p0 b1 b2 b3) 4 t.

Lemma err_shape p0 t0 r w rest :
  p0 < 0 \/ 128 <= p0 -> err t0 = (r, w, rest) -> shape (p0 :: t0) r w rest.
Proof. intros Hp [= <- <- <-]. apply sh_err. exact Hp. Qed.

Lemma dec2_shape p0 t0 r w rest :
  194 <= p0 < 224 -> dec2 p0 t0 = (r, w, rest) -> shape (p0 :: t0) r w rest.
Proof.
  intros Hp. unfold dec2.
  destruct t0 as [|b1 t1]; [apply err_shape; lia|].
  destruct (cont_bad b1) eqn:C1; [apply err_shape; lia|].
  intros [= <- <- <-]. unfold cont_bad, locb, hicb in C1. apply sh_2; lia.
Qed.

Lemma dec3_shape lo hi p0 t0 r w rest :
  224 <= p0 < 240 -> 128 <= lo -> hi <= 191 ->
  (p0 = 224 -> lo = 160) -> (p0 = 237 -> hi = 159) ->
  dec3 lo hi p0 t0 = (r, w, rest) -> shape (p0 :: t0) r w rest.
Proof.
  intros Hp Hlo Hhi H1 H2. unfold dec3.
  destruct t0 as [|b1 [|b2 t2]]; try (apply err_shape; lia).
  destruct ((b1 <? lo) || (hi <? b1)) eqn:C1; [apply err_shape; lia|].
  destruct (cont_bad b2) eqn:C2; [apply err_shape; lia|].
  intros [= <- <- <-]. unfold cont_bad, locb, hicb in C2. apply sh_3; lia.
Qed.

Lemma dec4_shape lo hi p0 t0 r w rest :
  240 <= p0 <= 244 -> 128 <= lo -> hi <= 191 ->
  (p0 = 240 -> lo = 144) -> (p0 = 244 -> hi = 143) ->
  dec4 lo hi p0 t0 = (r, w, rest) -> shape (p0 :: t0) r w rest.
Proof.
  intros Hp Hlo Hhi H1 H2. unfold dec4.
  destruct t0 as [|b1 [|b2 [|b3 t3]]]; try (apply err_shape; lia).
  destruct ((b1 <? lo) || (hi <? b1)) eqn:C1; [apply err_shape; lia|].
  destruct (cont_bad b2) eqn:C2; [apply err_shape; lia|].
  destruct (cont_bad b3) eqn:C3; [apply err_shape; lia|].
  intros [= <- <- <-]. unfold cont_bad, locb, hicb in C2, C3. apply sh_4; lia.
Qed.

Lemma decode_rune_shape bs r w rest :
  decode_rune bs = Some (r, w, rest) -> shape bs r w rest.
Proof.
  destruct bs as [|p0 t0]; [discriminate|]. unfold decode_rune. intros H.
  injection H as H.
  destruct (first_spec p0) as [F|[F|[F|[F|[F|[F|[F|[F|F]]]]]]]];
    destruct F as [Hr Hf]; rewrite Hf in H.
  - rewrite step_as in H. injection H as <- <- <-. apply sh_ascii. lia.
  - rewrite step_xx in H. apply err_shape; [lia|exact H].
  - rewrite step_s1 in H. apply dec2_shape; [lia|exact H].
  - rewrite step_s2 in H. eapply dec3_shape; [| | | | |exact H]; lia.
  - rewrite step_s3 in H. eapply dec3_shape; [| | | | |exact H]; lia.
  - rewrite step_s4 in H. eapply dec3_shape; [| | | | |exact H]; lia.
  - rewrite step_s5 in H. eapply dec4_shape; [| | | | |exact H]; lia.
  - rewrite step_s6 in H. eapply dec4_shape; [| | | | |exact H]; lia.
  - rewrite step_s7 in H. eapply dec4_shape; [| | | | |exact H]; lia.
Qed.

(* DecodeRune accepts all of Table 3-7 *)
Lemma shape_decode bs r w rest :
  shape bs r w rest -> (r, w) <> (RuneError, 1) ->
  decode_rune bs = Some (r, w, rest).
Proof.
  intros H Hne. unfold decode_rune.
  destruct H as [p0 t Hp|p0 t Hp|p0 b1 t Hp H1|p0 b1 b2 t Hp H1 Ha Hb H2
                |p0 b1 b2 b3 t Hp H1 Ha Hb H2 H3]; f_equal.
  - rewrite first_as by exact Hp. apply step_as.
  - contradiction Hne. reflexivity.
  - rewrite first_s1, step_s1 by exact Hp. apply dec2_ok. exact H1.
  - destruct (Z.eq_dec p0 224) as [->|N1]; [|destruct (Z.eq_dec p0 237) as [->|N2]].
    + rewrite step_s2. apply dec3_ok; lia.
    + rewrite step_s4. apply dec3_ok; lia.
    + rewrite first_s3, step_s3 by lia. apply dec3_ok; lia.
  - destruct (Z.eq_dec p0 240) as [->|N1]; [|destruct (Z.eq_dec p0 244) as [->|N2]].
    + rewrite step_s5. apply dec4_ok; lia.
    + rewrite step_s7. apply dec4_ok; lia.
    + rewrite first_s6, step_s6 by lia. apply dec4_ok; lia.
Qed.

Lemma decode_rune_none bs : decode_rune bs = None <-> bs = [].
Proof. destruct bs; simpl; split; congruence. Qed.

Theorem decode_width bs r w rest :
  decode_rune bs = Some (r, w, rest) ->
  1 <= w <= 4 /\
  bs = firstn (Z.to_nat w) bs ++ rest /\
  Z.of_nat (length (firstn (Z.to_nat w) bs)) = w.
Proof.
  intros H. apply decode_rune_shape in H.
  destruct H; (split; [lia|split; reflexivity]).
Qed.
Print Assumptions decode_width.

Definition scalar (r : Z) : Prop :=
  0 <= r <= 1114111 /\ ~ (55296 <= r <= 57343).

Lemma decode_rune_scalar bs r w rest :
  decode_rune bs = Some (r, w, rest) -> scalar r.
Proof.
  intros H. apply decode_rune_shape in H. unfold scalar.
  destruct H; unfold RuneError, rune2, rune3, rune4;
    Z.div_mod_to_equations; lia.
Qed.

Lemma shape_length bs r w rest :
  shape bs r w rest -> Z.of_nat (length bs) = w + Z.of_nat (length rest) /\ 1 <= w.
Proof. intros H. destruct H; cbn [length]; lia. Qed.

Lemma decode_all_fuel_each (P : Z * Z -> Prop) :
  (forall bs r w rest, decode_rune bs = Some (r, w, rest) -> P (r, w)) ->
  forall fuel bs, Forall P (decode_all_fuel fuel bs).
Proof.
  intros HP. induction fuel as [|f IH]; intros bs; cbn [decode_all_fuel];
    [constructor|].
  destruct (decode_rune bs) as [[[r w] rest]|] eqn:E; constructor;
    [exact (HP _ _ _ _ E)|apply IH].
Qed.

Lemma decode_all_fuel_sum fuel : forall bs,
  (length bs < fuel)%nat ->
  sum_widths (decode_all_fuel fuel bs) = Z.of_nat (length bs).
Proof.
  induction fuel as [|f IH]; intros bs Hlen; [lia|].
  cbn [decode_all_fuel].
  destruct (decode_rune bs) as [[[r w] rest]|] eqn:E.
  - apply decode_rune_shape, shape_length in E.
    cbn [sum_widths fold_right snd].
    fold (sum_widths (decode_all_fuel f rest)). rewrite IH; lia.
  - apply decode_rune_none in E. subst. reflexivity.
Qed.

(* no hypothesis on the input is needed: values outside 0..255 are decoded as
   invalid bytes *)
Theorem decode_all_total_gen bs :
  sum_widths (decode_all bs) = Z.of_nat (length bs) /\
  Forall (fun r => 0 <= r <= 1114111 /\ ~ (55296 <= r <= 57343))
         (runes_of (decode_all bs)).
Proof.
  unfold decode_all. split; [apply decode_all_fuel_sum; lia|].
  apply Forall_map, decode_all_fuel_each. exact decode_rune_scalar.
Qed.

Theorem decode_all_total bs :
  Forall (fun b => 0 <= b <= 255) bs ->
  sum_widths (decode_all bs) = Z.of_nat (length bs) /\
  Forall (fun r => 0 <= r <= 1114111 /\ ~ (55296 <= r <= 57343))
         (runes_of (decode_all bs)).
Proof. intros _. apply decode_all_total_gen. Qed.
Print Assumptions decode_all_total.

(* the range hypothesis of LexEquivProofs.equiv_lex *)
Corollary decode_all_runes_in_range bs :
  Forall (fun r => 0 <= r <= 1114111) (runes_of (decode_all bs)).
Proof.
  eapply Forall_impl; [|apply (proj2 (decode_all_total_gen bs))].
  cbv beta. intros r [H _]. exact H.
Qed.

Corollary decode_all_widths bs :
  Forall (fun rw => 1 <= snd rw <= 4) (decode_all bs).
Proof.
  apply decode_all_fuel_each. intros ? r w rest E.
  apply decode_width in E. cbn [snd]. lia.
Qed.

Lemma encode_rune_1 r : 0 <= r <= 127 -> encode_rune r = [r].
Proof.
  intros H. unfold encode_rune, rune1Max.
  replace ((0 <=? r) && (r <=? 127)) with true by lia. reflexivity.
Qed.

Lemma encode_rune_2 r : 128 <= r <= 2047 ->
  encode_rune r = [192 + r / 64; 128 + r mod 64].
Proof.
  intros H. unfold encode_rune, rune1Max, rune2Max.
  replace ((0 <=? r) && (r <=? 127)) with false by lia.
  replace ((0 <=? r) && (r <=? 2047)) with true by lia. reflexivity.
Qed.

Lemma encode_rune_3 r : 2048 <= r <= 65535 -> ~ (55296 <= r <= 57343) ->
  encode_rune r = enc3 r.
Proof.
  intros H Hs. unfold encode_rune, rune1Max, rune2Max, rune3Max, MaxRune,
    surrogateMin, surrogateMax.
  replace ((0 <=? r) && (r <=? 127)) with false by lia.
  replace ((0 <=? r) && (r <=? 2047)) with false by lia.
  replace ((r <? 0) || (1114111 <? r) || ((55296 <=? r) && (r <=? 57343)))
    with false by lia.
  replace (r <=? 65535) with true by lia. reflexivity.
Qed.

Lemma encode_rune_4 r : 65536 <= r <= 1114111 ->
  encode_rune r = [240 + r / 262144; 128 + (r / 4096) mod 64;
                   128 + (r / 64) mod 64; 128 + r mod 64].
Proof.
  intros H. unfold encode_rune, rune1Max, rune2Max, rune3Max, MaxRune,
    surrogateMin, surrogateMax.
  replace ((0 <=? r) && (r <=? 127)) with false by lia.
  replace ((0 <=? r) && (r <=? 2047)) with false by lia.
  replace ((r <? 0) || (1114111 <? r) || ((55296 <=? r) && (r <=? 57343)))
    with false by lia.
  replace (r <=? 65535) with false by lia. reflexivity.
Qed.

Lemma shape_rune bs r r' w rest : shape bs r' w rest -> r' = r -> shape bs r w rest.
Proof. intros H <-. exact H. Qed.

Lemma encode_shape r rest : scalar r ->
  shape (encode_rune r ++ rest) r (Z.of_nat (length (encode_rune r))) rest.
Proof.
  intros [Hr Hs].
  assert (C : r <= 127 \/ 128 <= r <= 2047 \/ 2048 <= r <= 65535 \/ 65536 <= r)
    by lia.
  destruct C as [C|[C|[C|C]]].
  - rewrite encode_rune_1 by lia. apply sh_ascii. lia.
  - rewrite encode_rune_2 by lia.
    eapply shape_rune; [apply sh_2|unfold rune2]; Z.div_mod_to_equations; lia.
  - rewrite encode_rune_3 by lia.
    eapply shape_rune; [apply sh_3|unfold rune3]; Z.div_mod_to_equations; lia.
  - rewrite encode_rune_4 by lia.
    eapply shape_rune; [apply sh_4|unfold rune4]; Z.div_mod_to_equations; lia.
Qed.

Theorem decode_encode r rest :
  0 <= r <= 1114111 -> ~ (55296 <= r <= 57343) ->
  decode_rune (encode_rune r ++ rest) =
  Some (r, Z.of_nat (length (encode_rune r)), rest).
Proof.
  intros Hr Hs. apply shape_decode; [apply encode_shape; split; assumption|].
  (* U+FFFD is written as three bytes *)
  intros [= -> H]. vm_compute in H. discriminate.
Qed.
Print Assumptions decode_encode.

Definition valid_prefix (bs : list Z) : Prop :=
  exists r' tl, scalar r' /\ bs = encode_rune r' ++ tl.

(* nothing need be assumed of the first byte: U+FFFD itself decodes with
   width 3 *)
Theorem invalid_gives_replacement_gen bs rest :
  decode_rune bs = Some (RuneError, 1, rest) -> ~ valid_prefix bs.
Proof.
  intros H (r' & tl & [Hr Hs] & Hb). subst bs.
  rewrite (decode_encode r' tl Hr Hs) in H. injection H as H1 H2 H3.
  subst r'. vm_compute in H2. discriminate.
Qed.

Theorem invalid_gives_replacement p0 t rest :
  128 <= p0 ->
  decode_rune (p0 :: t) = Some (RuneError, 1, rest) ->
  ~ exists r' tl, (0 <= r' <= 1114111 /\ ~ (55296 <= r' <= 57343)) /\
                  p0 :: t = encode_rune r' ++ tl.
Proof. intros _ H. exact (invalid_gives_replacement_gen _ _ H). Qed.
Print Assumptions invalid_gives_replacement.

Lemma shape_encode bs r w rest :
  shape bs r w rest ->
  (r = RuneError /\ w = 1) \/
  (bs = encode_rune r ++ rest /\ w = Z.of_nat (length (encode_rune r))).
Proof.
  (* the rune of a row lies in the range of its width, and the bytes
     encode_rune writes for it are those of the row, one by one *)
  intros H. destruct H; [right|left; split; reflexivity|right|right|right].
  - rewrite encode_rune_1 by lia. split; reflexivity.
  - rewrite encode_rune_2; [split; [cbn [app]; repeat f_equal|reflexivity]|];
      unfold rune2; Z.div_mod_to_equations; lia.
  - rewrite encode_rune_3; [split; [cbn [enc3 app]; repeat f_equal|reflexivity]| |];
      unfold rune3; Z.div_mod_to_equations; lia.
  - rewrite encode_rune_4; [split; [cbn [app]; repeat f_equal|reflexivity]|];
      unfold rune4; Z.div_mod_to_equations; lia.
Qed.

Theorem decode_valid_or_replacement bs r w rest :
  decode_rune bs = Some (r, w, rest) ->
  (r = RuneError /\ w = 1 /\ rest = tl bs /\ ~ valid_prefix bs) \/
  (scalar r /\ bs = encode_rune r ++ rest /\
   w = Z.of_nat (length (encode_rune r))).
Proof.
  intros H. pose proof (decode_rune_scalar _ _ _ _ H) as Hs.
  pose proof (decode_rune_shape _ _ _ _ H) as Hsh.
  destruct (shape_encode _ _ _ _ Hsh) as [[-> ->]|[Hb Hw]].
  - left. repeat split; [|exact (invalid_gives_replacement_gen _ _ H)].
    inversion Hsh; subst; try reflexivity.
  - right. auto.
Qed.
Print Assumptions decode_valid_or_replacement.


Lemma encode_rune_length r : (1 <= length (encode_rune r) <= 4)%nat.
Proof.
  unfold encode_rune, enc3.
  repeat match goal with
         | |- context [if ?c then _ else _] => destruct c
         end; cbn [length]; lia.
Qed.

Lemma decode_all_fuel_encode_all rs : forall fuel,
  Forall scalar rs -> (length (encode_all rs) < fuel)%nat ->
  decode_all_fuel fuel (encode_all rs) =
  map (fun r => (r, Z.of_nat (length (encode_rune r)))) rs.
Proof.
  induction rs as [|r rs IH]; intros fuel Hs Hlen.
  - destruct fuel; reflexivity.
  - inversion Hs as [|? ? [Hr Hsr] Hs']; subst.
    destruct fuel as [|f]; [lia|].
    unfold encode_all in *. cbn [flat_map] in *. rewrite app_length in Hlen.
    cbn [decode_all_fuel]. rewrite (decode_encode r _ Hr Hsr).
    cbn [map]. f_equal. apply IH; [assumption|].
    pose proof (encode_rune_length r). lia.
Qed.

Theorem decode_all_encode_all rs :
  Forall (fun r => 0 <= r <= 1114111 /\ ~ (55296 <= r <= 57343)) rs ->
  decode_all (encode_all rs) =
  map (fun r => (r, Z.of_nat (length (encode_rune r)))) rs.
Proof.
  intros H. unfold decode_all. apply decode_all_fuel_encode_all; [exact H|lia].
Qed.

Corollary decode_all_encode_all_runes rs :
  Forall (fun r => 0 <= r <= 1114111 /\ ~ (55296 <= r <= 57343)) rs ->
  runes_of (decode_all (encode_all rs)) = rs.
Proof.
  intros H. rewrite (decode_all_encode_all rs H). unfold runes_of.
  rewrite map_map. cbn [fst]. apply map_id.
Qed.
Print Assumptions decode_all_encode_all_runes.
