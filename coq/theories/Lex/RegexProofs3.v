(* The string-level meaning of a non-greedy-shaped rule  P B* T  (the shortest
   match ends at the first occurrence of T), and the shape of the transition
   list of a view (sorted, disjoint, inside 0..1114111). *)
From Coq Require Import List ZArith Lia.
From Lox Require Import Base.ListFacts Lex.LexAuto Lex.RegexRef Lex.RegexProofs.
Import ListNotations.
Local Open Scope Z_scope.

Lemma m_cls1 : forall c w, matches (RCls [(c, c)]) w <-> w = [c].
Proof.
  intros c w. rewrite m_cls. unfold in_cls, in1. cbn [existsb fst snd]. split.
  - intros (c' & -> & H). f_equal. lia.
  - intros ->. exists c. split; [reflexivity|lia].
Qed.

Lemma m_lit : forall cs w, matches (lit cs) w <-> w = cs.
Proof.
  induction cs as [|c [|c2 cs'] IH]; intros w; cbn [lit].
  - apply m_eps.
  - apply m_cls1.
  - rewrite m_cat. split.
    + intros (u & v & -> & Hu & Hv). apply m_cls1 in Hu. apply IH in Hv. subst. reflexivity.
    + intros ->. exists [c], (c2 :: cs'). split; [reflexivity|].
      split; [apply m_cls1|apply IH]; reflexivity.
Qed.

Definition in_B (bs : list (Z * Z)) (c : Z) : Prop := in_cls c bs = true.

Lemma m_star_cls : forall bs w, matches (RStar (RCls bs)) w <-> Forall (in_B bs) w.
Proof.
  intros bs. induction w as [|c w IH].
  - split; constructor.
  - rewrite m_star_cons, Forall_cons_iff, <- IH. split.
    + intros (u & v & -> & Hu & Hv). apply m_cls in Hu. destruct Hu as (c' & Huc & Hc).
      injection Huc as <- ->. split; [exact Hc|exact Hv].
    + intros [Hc Hw]. exists [], w. split; [reflexivity|]. split; [|exact Hw].
      apply m_cls. exists c. split; [reflexivity|exact Hc].
Qed.

(* the shape lox gives to a non-greedy rule: prefix, any run of B, terminator *)
Definition ng_shape (P : re) (bs : list (Z * Z)) (T : re) : re :=
  RCat P (RCat (RStar (RCls bs)) T).

Definition fixed_len (P : re) (n : nat) : Prop := forall w, matches P w -> length w = n.

Theorem ng_shape_matches : forall P bs T t u,
  (forall w, matches T w <-> w = t) ->
  (matches (ng_shape P bs T) u <->
   exists p mid, u = p ++ mid ++ t /\ matches P p /\ Forall (in_B bs) mid).
Proof.
  intros P bs T t u HT. unfold ng_shape. rewrite m_cat. split.
  - intros (p & v & -> & Hp & (mid & t' & -> & Hmid%m_star_cls & ->%HT)%m_cat).
    exists p, mid. auto.
  - intros [p [mid [-> [Hp Hmid]]]]. exists p, (mid ++ t). split; [reflexivity|]. split; [exact Hp|].
    apply m_cat. exists mid, t. split; [reflexivity|]. split; [apply m_star_cls; exact Hmid|].
    apply HT. reflexivity.
Qed.

Theorem ng_shape_suffix : forall P bs t u,
  matches (ng_shape P bs (lit t)) u -> exists pre, u = pre ++ t.
Proof.
  intros P bs t u H. apply (ng_shape_matches P bs (lit t) t u (m_lit t)) in H.
  destruct H as [p [mid [-> _]]]. exists (p ++ mid). rewrite app_assoc. reflexivity.
Qed.

(* the t that ends the shortest match is the FIRST occurrence of t at or after
   offset n that only characters of B separate from offset n *)
Theorem first_occurrence_is_shortest_match_gen : forall P bs T t n s u rest,
  (forall w, matches T w <-> w = t) ->
  fixed_len P n ->
  s = u ++ rest ->
  matches (ng_shape P bs T) u ->
  (forall u' rest', s = u' ++ rest' -> matches (ng_shape P bs T) u' -> (length u <= length u')%nat) ->
  exists p mid,
    u = p ++ mid ++ t /\ length p = n /\ matches P p /\ Forall (in_B bs) mid /\
    forall p' mid' rest',
      s = p' ++ mid' ++ t ++ rest' -> length p' = n -> Forall (in_B bs) mid' ->
      (length mid <= length mid')%nat.
Proof.
  intros P bs T t n s u rest HT Hfix Hs Hm Hshort.
  apply (ng_shape_matches P bs T t u HT) in Hm. destruct Hm as [p [mid [Hu [Hp Hmid]]]].
  exists p, mid. pose proof (Hfix p Hp) as Hlen.
  repeat (split; [assumption|]).
  intros p' mid' rest' Hs' Hlen' Hmid'.
  assert (Hpp : p' = p).
  { rewrite Hs, Hu in Hs'. rewrite <- !app_assoc in Hs'.
    destruct (app_eq_len p p' _ _ Hs' ltac:(lia)) as [Heq _]. symmetry. exact Heq. }
  subst p'.
  assert (Hm' : matches (ng_shape P bs T) (p ++ mid' ++ t)).
  { apply (ng_shape_matches P bs T t _ HT). exists p, mid'. auto. }
  assert (Hs2 : s = (p ++ mid' ++ t) ++ rest').
  { rewrite Hs'. rewrite <- !app_assoc. reflexivity. }
  pose proof (Hshort _ rest' Hs2 Hm') as Hle.
  rewrite Hu in Hle. rewrite !app_length in Hle. lia.
Qed.

Theorem first_occurrence_is_shortest_match : forall P bs t n s u rest,
  fixed_len P n ->
  s = u ++ rest ->
  matches (ng_shape P bs (lit t)) u ->
  (forall u' rest', s = u' ++ rest' -> matches (ng_shape P bs (lit t)) u' -> (length u <= length u')%nat) ->
  exists p mid,
    u = p ++ mid ++ t /\ length p = n /\ matches P p /\ Forall (in_B bs) mid /\
    forall p' mid' rest',
      s = p' ++ mid' ++ t ++ rest' -> length p' = n -> Forall (in_B bs) mid' ->
      (length mid <= length mid')%nat.
Proof.
  intros P bs t n s u rest. apply (first_occurrence_is_shortest_match_gen P bs (lit t) t n s u rest (m_lit t)).
Qed.
Print Assumptions first_occurrence_is_shortest_match.
Print Assumptions ng_shape_suffix.

Lemma fixed_len_lit : forall t, fixed_len (lit t) (length t).
Proof. intros t w H. apply m_lit in H. subst. reflexivity. Qed.

Lemma fixed_len_cls : forall rs, fixed_len (RCls rs) 1.
Proof. intros rs w H. apply m_cls in H. destruct H as [c [-> _]]. reflexivity. Qed.

Lemma fixed_len_cat : forall a b n k, fixed_len a n -> fixed_len b k -> fixed_len (RCat a b) (n + k).
Proof.
  intros a b n k Ha Hb w H. apply m_cat in H. destruct H as [u [v [-> [Hu Hv]]]].
  rewrite app_length, (Ha u Hu), (Hb v Hv). reflexivity.
Qed.

Fixpoint tr_sorted {X : Type} (prev : Z) (tr : list (Z * Z * X)) : Prop :=
  match tr with
  | [] => True
  | t :: rest => prev < fst (fst t) /\ fst (fst t) <= snd (fst t) <= 1114111 /\ tr_sorted (snd (fst t)) rest
  end.

Lemma build_sorted_cons : forall st a ats prev,
  prev < fst a -> fst a <= snd a <= 1114111 -> tr_sorted (snd a) (build st ats) ->
  tr_sorted prev (build st (a :: ats)).
Proof.
  intros st a ats prev Hlo Hhi Hrest. rewrite build_cons.
  destruct (step_of st (fst a)).
  - cbn [tr_sorted fst snd]. auto.
  - destruct (build st ats); [exact I|]. cbn [tr_sorted] in *. split; [lia|apply Hrest].
Qed.

Lemma build_sorted : forall st pts prev,
  ssorted pts -> (forall p, In p pts -> prev < p <= 1114111) ->
  tr_sorted prev (build st (atoms pts)).
Proof.
  intros st. induction pts as [|p [|q rest] IH]; intros prev Hs Hr; [exact I| |];
    pose proof (Hr p (or_introl eq_refl)) as Hpr.
  - apply build_sorted_cons; cbn [fst snd build]; [lia|lia|exact I].
  - pose proof (Hr q (or_intror (or_introl eq_refl))) as Hqr.
    destruct Hs as [Hp Hs]. pose proof (Hp q (or_introl eq_refl)) as Hpq.
    rewrite atoms_cons2. apply build_sorted_cons; cbn [fst snd]; [lia|lia|].
    apply IH; [exact Hs|]. intros y Hy.
    pose proof (Hr y (or_intror Hy)). pose proof (ssorted_hd_le q rest y Hs Hy). lia.
Qed.

Theorem view_trans_sorted : forall rules st,
  tr_sorted (-1) (v_trans (re_view rules st)).
Proof.
  intros rules st. cbn [re_view v_trans]. rewrite st_points_eq.
  apply build_sorted; [apply pts_of_sorted|].
  intros p Hp. apply pts_of_range in Hp. lia.
Qed.
Print Assumptions view_trans_sorted.

(* the rule  '/*' .* '*/'  with the non-greedy mark *)

Definition ex_comment : list rule :=
  [ {| r_re := ng_shape (lit [47; 42]) [(0, 1114111)] (lit [42; 47]); r_acts := [(4, 0)]; r_ng := true |} ].

Definition ex_run (cs : list Z) : list re :=
  fold_left (fun st c => map (deriv c) st) cs (re_start [ex_comment] 0).

(* after "/*a*/" the view stops (flag set) although '.' could go on *)
Example ex_comment_flag :
  v_flag (re_view ex_comment (ex_run [47; 42; 97; 42; 47])) = true /\
  v_acts (re_view ex_comment (ex_run [47; 42; 97; 42; 47])) = [(4, 0)] /\
  v_flag (re_view ex_comment (ex_run [47; 42; 97; 42])) = false.
Proof. vm_compute. auto. Qed.
