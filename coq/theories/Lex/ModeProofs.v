(* Mode-stack discipline of the action loop.  (a) when the terminal action
   is last, every push/pop pair of the list is executed, in order; (b) a push
   followed by a balanced sequence and a pop restores mode and stack. *)
From Coq Require Import List ZArith Lia Bool.
From Lox Require Import Lex.LexRuntime Lex.LexAuto Lex.LexDecodeProofs.
Import ListNotations.
Local Open Scope Z_scope.

Section Modes.
Variable nmodes : nat.

(* fold the push/pop pairs over (mode, stack); None when popping an empty
   stack or pushing an out-of-range mode *)
Fixpoint apply_modes (acts : list (Z * Z)) (ms : nat * list nat) : option (nat * list nat) :=
  match acts with
  | [] => Some ms
  | (ty, p) :: rest =>
    if ty =? 1 then
      if (p <? 0) || (Z.of_nat nmodes <=? p) then None
      else apply_modes rest (Z.to_nat p, fst ms :: snd ms)
    else if ty =? 2 then
      match snd ms with
      | [] => None
      | m :: st => apply_modes rest (m, st)
      end
    else apply_modes rest ms
  end.

Definition is_terminal (ty : Z) : bool := (3 <=? ty) && (ty <=? 5).

Fixpoint first_terminal (acts : list (Z * Z)) : option (Z * Z) :=
  match acts with
  | [] => None
  | (ty, p) :: rest => if is_terminal ty then Some (ty, p) else first_terminal rest
  end.

Definition term_code (ty : Z) : Z :=
  if ty =? 3 then lexAccept else if ty =? 4 then lexDiscard else lexTryAgain.

Lemma first_terminal_last : forall acts a,
  terminal_last acts = true -> first_terminal acts = Some a ->
  exists pre, acts = pre ++ [a] /\ first_terminal pre = None.
Proof.
  induction acts as [|[ty p] rest IH]; intros a Htl H; cbn [first_terminal] in H; [discriminate|].
  cbn [terminal_last] in Htl. unfold is_terminal in H.
  destruct ((3 <=? ty) && (ty <=? 5)) eqn:E.
  - injection H as <-. destruct rest; [|discriminate]. exists []. split; reflexivity.
  - destruct (IH a Htl H) as [pre [Hp Hn]]. exists ((ty, p) :: pre).
    split; [rewrite Hp; reflexivity|]. cbn [first_terminal]. unfold is_terminal. rewrite E. exact Hn.
Qed.

Lemma is_terminal_345 : forall ty, is_terminal ty = (ty =? 3) || (ty =? 4) || (ty =? 5).
Proof. intros ty. unfold is_terminal. lia. Qed.

Lemma act_spec_apply : forall acts md st,
  terminal_last acts = true ->
  match apply_modes acts (md, st) with
  | Some (m', st') =>
    act_spec nmodes acts md st =
    match first_terminal acts with
    | Some (ty, p) => OTerm (term_code ty) (if ty =? 3 then Some p else None) m' st'
    | None => OFall m' st'
    end
  | None =>
    act_spec nmodes acts md st = OCrash \/
    exists m' st', act_spec nmodes acts md st = OPopErr m' st'
  end.
Proof.
  induction acts as [|[ty p] rest IH]; intros md st Htl; [reflexivity|].
  cbn [terminal_last] in Htl. fold (is_terminal ty) in Htl.
  cbn [apply_modes act_spec first_terminal fst snd]. rewrite is_terminal_345 in *.
  destruct (act_type_cases ty) as [->|[->|[->|[->|[->|(E1 & E2 & E3 & E4 & E5)]]]]];
    [| | | | |rewrite E1, E2, E3, E4, E5 in *]; cbn [Z.eqb Pos.eqb orb] in *.
  - destruct ((p <? 0) || (Z.of_nat nmodes <=? p)); [left; reflexivity|]. apply IH. exact Htl.
  - destruct st as [|m0 st0]; [right; exists md, []; reflexivity|]. apply IH. exact Htl.
  - destruct rest; [reflexivity|discriminate].
  - destruct rest; [reflexivity|discriminate].
  - destruct rest; [reflexivity|discriminate].
  - apply IH. exact Htl.
Qed.

Theorem actions_all_effective : forall (S : Type) (start : nat -> S) acts (l : gsm S),
  terminal_last acts = true ->
  match apply_modes acts (g_mode l, g_stack l) with
  | Some (m', st') =>
    g_actions S start nmodes acts l =
    match first_terminal acts with
    | Some (ty, p) =>
      GReturn S (term_code ty)
        (at_start S start (Build_gsm S (g_token l) (g_state l) (g_fresh l) (g_accum l) m' st')
                  (term_code ty) (if ty =? 3 then p else g_token l))
    | None => GFall S (Build_gsm S (g_token l) (g_state l) (g_fresh l) (g_accum l) m' st')
    end
  | None =>
    g_actions S start nmodes acts l = GCrash S \/
    exists l', g_actions S start nmodes acts l = GReturn S lexError l'
  end.
Proof.
  intros S start acts [tok s f a md st] Htl. cbn [g_token g_state g_fresh g_accum g_mode g_stack].
  rewrite g_actions_spec.
  pose proof (act_spec_apply acts md st Htl) as H.
  destruct (apply_modes acts (md, st)) as [[m' st']|].
  - rewrite H. destruct (first_terminal acts) as [[ty p]|]; cbn [g_out]; [|reflexivity].
    unfold at_start. cbn [g_mode g_stack g_token]. destruct (ty =? 3); reflexivity.
  - destruct H as [H|[m' [st' H]]]; rewrite H; cbn [g_out]; [left; reflexivity|].
    right. eexists. reflexivity.
Qed.

Theorem run_actions_all_effective : forall modes m n i ac fuel tok s cn a md st,
  nmodes = length modes ->
  take_pairs n m i = Some ac -> (n < fuel)%nat -> terminal_last ac = true ->
  let l0 := {| sm_token := tok; sm_state := s; sm_consumed := cn; sm_accum := a;
               sm_mode := md; sm_stack := st |} in
  match apply_modes ac (md, st) with
  | Some (m', st') =>
    run_actions modes fuel m i (i + 2 * Z.of_nat n) l0 =
    match first_terminal ac with
    | Some (ty, p) =>
      AReturn (term_code ty)
        {| sm_token := if ty =? 3 then p else tok; sm_state := 0; sm_consumed := false;
           sm_accum := (term_code ty =? lexTryAgain); sm_mode := m'; sm_stack := st' |}
    | None => AFall {| sm_token := tok; sm_state := s; sm_consumed := cn; sm_accum := a;
                       sm_mode := m'; sm_stack := st' |}
    end
  | None =>
    run_actions modes fuel m i (i + 2 * Z.of_nat n) l0 = ACrash \/
    exists l', run_actions modes fuel m i (i + 2 * Z.of_nat n) l0 = AReturn lexError l'
  end.
Proof.
  intros modes m n i ac fuel tok s cn a md st Hnm Htp Hf Htl l0. unfold l0.
  rewrite (run_actions_spec modes m n i ac Htp fuel _ Hf). rewrite <- Hnm.
  cbn [sm_token sm_state sm_consumed sm_accum sm_mode sm_stack].
  pose proof (act_spec_apply ac md st Htl) as H.
  destruct (apply_modes ac (md, st)) as [[m' st']|].
  - rewrite H. destruct (first_terminal ac) as [[ty p]|]; cbn [sm_out]; [|reflexivity].
    destruct (ty =? 3); reflexivity.
  - destruct H as [H|[m' [st' H]]]; rewrite H; cbn [sm_out]; [left; reflexivity|].
    right. eexists. reflexivity.
Qed.

Lemma apply_modes_app : forall a b ms,
  apply_modes (a ++ b) ms =
  match apply_modes a ms with Some ms' => apply_modes b ms' | None => None end.
Proof.
  induction a as [|[ty p] a IH]; intros b ms; [reflexivity|].
  cbn [app apply_modes].
  destruct (act_type_cases ty) as [->|[->|[->|[->|[->|(-> & -> & _)]]]]]; cbn [Z.eqb Pos.eqb];
    try apply IH.
  - destruct ((p <? 0) || (Z.of_nat nmodes <=? p)); [reflexivity|]. apply IH.
  - destruct (snd ms); [reflexivity|]. apply IH.
Qed.

Inductive balanced : list (Z * Z) -> Prop :=
| bal_nil : balanced []
| bal_other : forall ty p, ty <> 1 -> ty <> 2 -> balanced [(ty, p)]
| bal_wrap : forall p q a, balanced a -> balanced ((1, p) :: a ++ [(2, q)])
| bal_app : forall a b, balanced a -> balanced b -> balanced (a ++ b).

(* a balanced list never pops an empty stack: it can only fail by pushing an
   out-of-range mode *)
Lemma balanced_apply : forall a, balanced a -> forall ms,
  apply_modes a ms = Some ms \/
  (apply_modes a ms = None /\ exists p, In (1, p) a /\ ~ 0 <= p < Z.of_nat nmodes).
Proof.
  induction 1 as [|ty p H1 H2|p q a Ha IH|a b Ha IHa Hb IHb]; intros ms.
  - left. reflexivity.
  - left. cbn [apply_modes].
    destruct (ty =? 1) eqn:T1; [lia|]. destruct (ty =? 2) eqn:T2; [lia|]. reflexivity.
  - cbn [apply_modes Z.eqb Pos.eqb].
    destruct ((p <? 0) || (Z.of_nat nmodes <=? p)) eqn:C.
    { right. split; [reflexivity|]. exists p. split; [left; reflexivity|lia]. }
    rewrite apply_modes_app.
    destruct (IH (Z.to_nat p, fst ms :: snd ms)) as [E|[E (p' & Hin & Hp')]]; rewrite E.
    + left. cbn [apply_modes Z.eqb Pos.eqb snd]. destruct ms; reflexivity.
    + right. split; [reflexivity|]. exists p'. split; [right; apply in_or_app; left; exact Hin|exact Hp'].
  - rewrite apply_modes_app. destruct (IHa ms) as [E|[E (p' & Hin & Hp')]]; rewrite E.
    + destruct (IHb ms) as [E'|[E' (p' & Hin & Hp')]]; [left; exact E'|].
      right. split; [exact E'|]. exists p'. split; [apply in_or_app; right; exact Hin|exact Hp'].
    + right. split; [reflexivity|]. exists p'. split; [apply in_or_app; left; exact Hin|exact Hp'].
Qed.

Lemma balanced_restores : forall a, balanced a ->
  forall ms r, apply_modes a ms = Some r -> r = ms.
Proof.
  intros a Hb ms r Hr.
  destruct (balanced_apply a Hb ms) as [E|[E _]]; rewrite E in Hr; [|discriminate Hr].
  injection Hr as <-. reflexivity.
Qed.

Theorem push_pop_restores : forall p q mid m st r,
  balanced mid ->
  apply_modes ((1, p) :: mid ++ [(2, q)]) (m, st) = Some r -> r = (m, st).
Proof.
  intros p q mid m st r Hb H.
  apply (balanced_restores _ (bal_wrap p q mid Hb) (m, st) r H).
Qed.

Theorem push_pop_restores_ok : forall p q mid m st,
  balanced mid -> 0 <= p < Z.of_nat nmodes ->
  (forall p', In (1, p') mid -> 0 <= p' < Z.of_nat nmodes) ->
  apply_modes ((1, p) :: mid ++ [(2, q)]) (m, st) = Some (m, st).
Proof.
  intros p q mid m st Hb Hp Hmid.
  destruct (balanced_apply _ (bal_wrap p q mid Hb) (m, st)) as [E|[_ (p' & Hin & Hp')]]; [exact E|].
  contradiction Hp'. destruct Hin as [Hin|Hin]; [injection Hin as <-; exact Hp|].
  apply in_app_or in Hin. destruct Hin as [Hin|[Hin|[]]]; [apply Hmid; exact Hin|discriminate Hin].
Qed.

End Modes.

Print Assumptions actions_all_effective.
Print Assumptions run_actions_all_effective.
Print Assumptions push_pop_restores.
Print Assumptions push_pop_restores_ok.
