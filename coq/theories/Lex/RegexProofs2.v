(* The token-level specification of the derivative reference automaton:
   longest viable run, earliest matching rule, error otherwise; with
   non-greedy marks, the shortest marked match. *)
From Coq Require Import List ZArith Lia Bool.
From Lox Require Import Base.ListFacts Lex.LexRuntime Lex.LexAuto Lex.LexDecodeProofs Lex.RegexRef Lex.RegexProofs.
Import ListNotations.
Local Open Scope Z_scope.

Definition wf_rules (rules : list rule) : Prop := Forall (fun r => wf_re (r_re r)) rules.

(* u is still a prefix of some match of the mode *)
Definition viable (rules : list rule) (u : list Z) : Prop :=
  exists i r v, nth_error rules i = Some r /\ matches (r_re r) (u ++ v).

(* rule number i (= r) is the earliest-declared rule matching exactly u *)
Definition earliest (rules : list rule) (u : list Z) (i : nat) (r : rule) : Prop :=
  nth_error rules i = Some r /\ matches (r_re r) u /\
  forall j r', (j < i)%nat -> nth_error rules j = Some r' -> ~ matches (r_re r') u.

Definition no_match (rules : list rule) (u : list Z) : Prop :=
  forall i r, nth_error rules i = Some r -> ~ matches (r_re r) u.

(* the action list selected at the end of the run u *)
Definition sel_acts (rules : list rule) (u : list Z) (acts : list (Z * Z)) : Prop :=
  (exists i r, earliest rules u i r /\ acts = r_acts r) \/ (no_match rules u /\ acts = []).

(* some rule carrying the non-greedy mark matches exactly u *)
Definition ng_match (rules : list rule) (u : list Z) : Prop :=
  exists i r, nth_error rules i = Some r /\ r_ng r = true /\ matches (r_re r) u.

Definition greedy (rules : list rule) : Prop := forall r, In r rules -> r_ng r = false.

(* the reference state after reading u *)
Definition der (rules : list rule) (u : list Z) : list re :=
  fold_left (fun st c => map (deriv c) st) u (map r_re rules).

Definition derw (u : list Z) (r : re) : re := fold_left (fun d c => deriv c d) u r.

Fixpoint first_null (st : list re) : option nat :=
  match st with
  | [] => None
  | d :: ds => if nullable d then Some O else option_map S (first_null ds)
  end.

Lemma derw_correct : forall u r v, matches (derw u r) v <-> matches r (u ++ v).
Proof.
  induction u as [|c u IH]; intros r v; cbn [derw fold_left app]; [tauto|].
  fold (derw u (deriv c r)). rewrite IH. apply deriv_correct.
Qed.

Lemma derw_clean : forall u r, clean r -> clean (derw u r).
Proof.
  induction u as [|c u IH]; intros r H; cbn [derw fold_left]; [exact H|].
  apply IH. apply deriv_clean. exact H.
Qed.

Lemma der_gen : forall (X : Type) u (f : X -> re) (l : list X),
  fold_left (fun st c => map (deriv c) st) u (map f l) = map (fun x => derw u (f x)) l.
Proof.
  intros X. induction u as [|c u IH]; intros f l; cbn [fold_left]; [reflexivity|].
  rewrite map_map. rewrite (IH (fun x => deriv c (f x)) l). reflexivity.
Qed.

Lemma der_map : forall rules u, der rules u = map (fun r => derw u (r_re r)) rules.
Proof. intros rules u. apply der_gen. Qed.

Lemma der_nil : forall rules, der rules [] = map r_re rules.
Proof. reflexivity. Qed.

Lemma der_snoc : forall rules u c, der rules (u ++ [c]) = map (deriv c) (der rules u).
Proof. intros rules u c. unfold der. rewrite fold_left_app. reflexivity. Qed.

Lemma derw_null : forall u r, nullable (derw u r) = true <-> matches r u.
Proof.
  intros u r. rewrite nullable_correct, derw_correct, app_nil_r. tauto.
Qed.

Lemma derw_inhabited : forall u r, wf_re r ->
  (is_empty (derw u r) = false <-> exists v, matches r (u ++ v)).
Proof.
  intros u r Hwf. rewrite (is_empty_false (derw u r)) by (apply derw_clean; right; exact Hwf).
  split; intros [v Hv]; exists v; apply derw_correct; exact Hv.
Qed.

Lemma forallb_map_false : forall (X : Type) (f : re -> bool) (g : X -> re) (l : list X),
  forallb f (map g l) = false <-> exists i x, nth_error l i = Some x /\ f (g x) = false.
Proof.
  intros X f g. induction l as [|x l IH]; cbn [map forallb].
  - split; [discriminate|]. intros [[|i] [y [H _]]]; discriminate H.
  - rewrite andb_false_iff, IH, (exists_nth_cons (fun y => f (g y) = false)). reflexivity.
Qed.

Lemma wf_rules_nth : forall rules i r, wf_rules rules -> nth_error rules i = Some r -> wf_re (r_re r).
Proof.
  intros rules i r Hwf Hi. unfold wf_rules in Hwf. rewrite Forall_forall in Hwf.
  apply Hwf. apply (nth_error_In _ _ Hi).
Qed.

Theorem der_viable : forall rules u, wf_rules rules ->
  (forallb is_empty (der rules u) = false <-> viable rules u).
Proof.
  intros rules u Hwf. rewrite der_map, forallb_map_false. unfold viable.
  split.
  - intros (i & r & Hi & He). exists i, r.
    apply (derw_inhabited u _ (wf_rules_nth rules i r Hwf Hi)) in He as [v Hv]. eauto.
  - intros (i & r & v & Hi & Hm). exists i, r. split; [exact Hi|].
    apply (derw_inhabited u _ (wf_rules_nth rules i r Hwf Hi)). eauto.
Qed.
Print Assumptions der_viable.

Lemma viable_prefix : forall rules u v, viable rules (u ++ v) -> viable rules u.
Proof.
  intros rules u v [i [r [w [Hi Hm]]]]. exists i, r, (v ++ w). split; [exact Hi|].
  rewrite app_assoc. exact Hm.
Qed.

Lemma first_null_earliest : forall rules u,
  match first_null (der rules u) with
  | Some i => exists r, earliest rules u i r
  | None => no_match rules u
  end.
Proof.
  intros rules u. rewrite der_map. induction rules as [|r0 rules IH]; cbn [map first_null].
  - intros i r Hi. destruct i; discriminate Hi.
  - destruct (nullable (derw u (r_re r0))) eqn:En.
    + apply derw_null in En. exists r0. split; [reflexivity|]. split; [exact En|].
      intros j r' Hj. lia.
    + assert (Hn0 : ~ matches (r_re r0) u) by (rewrite <- derw_null, En; discriminate).
      destruct (first_null (map (fun r => derw u (r_re r)) rules)) as [i|]; cbn [option_map].
      * destruct IH as (r & Hi & Hm & Hbefore). exists r. split; [exact Hi|]. split; [exact Hm|].
        intros [|j] r' Hj Hr'; cbn [nth_error] in Hr'.
        -- injection Hr' as <-. exact Hn0.
        -- apply (Hbefore j r'); [lia|exact Hr'].
      * intros [|i] r Hi; cbn [nth_error] in Hi; [injection Hi as <-; exact Hn0|apply (IH i r Hi)].
Qed.

Lemma earliest_unique : forall rules u i r i' r',
  earliest rules u i r -> earliest rules u i' r' -> i = i'.
Proof.
  intros rules u i r i' r' (Hi & Hm & Hb) (Hi' & Hm' & Hb').
  destruct (lt_eq_lt_dec i i') as [[Hlt| ->]|Hgt]; [|reflexivity|].
  - exfalso. apply (Hb' i r Hlt Hi Hm).
  - exfalso. apply (Hb i' r' Hgt Hi' Hm').
Qed.

Theorem der_label : forall rules u i,
  first_null (der rules u) = Some i <-> exists r, earliest rules u i r.
Proof.
  intros rules u i. pose proof (first_null_earliest rules u) as Hf. split.
  - intros E. rewrite E in Hf. exact Hf.
  - intros [r He]. destruct (first_null (der rules u)) as [i'|].
    + destruct Hf as [r' He']. f_equal. apply (earliest_unique rules u i' r' i r He' He).
    + exfalso. destruct He as (Hi & Hm & _). apply (Hf i r Hi Hm).
Qed.
Print Assumptions der_label.

Theorem der_label_none : forall rules u, first_null (der rules u) = None <-> no_match rules u.
Proof.
  intros rules u. pose proof (first_null_earliest rules u) as Hf. split.
  - intros E. rewrite E in Hf. exact Hf.
  - intros Hn. destruct (first_null (der rules u)) as [i|]; [|reflexivity].
    exfalso. destruct Hf as (r & Hi & Hm & _). apply (Hn i r Hi Hm).
Qed.

Lemma first_acts_first_null : forall (g : rule -> re) rules,
  first_acts rules (map g rules) =
  match first_null (map g rules) with
  | Some i => match nth_error rules i with Some r => r_acts r | None => [] end
  | None => []
  end.
Proof.
  intros g. induction rules as [|r0 rules IH]; cbn [map first_acts first_null]; [reflexivity|].
  destruct (nullable (g r0)); [reflexivity|]. rewrite IH.
  destruct (first_null (map g rules)) as [i|]; reflexivity.
Qed.

Theorem sel_acts_first : forall rules u acts,
  sel_acts rules u acts -> first_acts rules (der rules u) = acts.
Proof.
  intros rules u acts Hsel. rewrite der_map, first_acts_first_null, <- der_map.
  destruct Hsel as [(i & r & He & ->)|[Hn ->]].
  - rewrite (proj2 (der_label rules u i) (ex_intro _ r He)). destruct He as [-> _]. reflexivity.
  - rewrite (proj2 (der_label_none rules u) Hn). reflexivity.
Qed.

Theorem sel_acts_exists : forall rules u, sel_acts rules u (first_acts rules (der rules u)).
Proof.
  intros rules u. rewrite der_map, first_acts_first_null, <- der_map.
  pose proof (first_null_earliest rules u) as Hf.
  destruct (first_null (der rules u)) as [i|].
  - destruct Hf as [r He]. left. exists i, r. split; [exact He|].
    destruct He as [-> _]. reflexivity.
  - right. split; [exact Hf|reflexivity].
Qed.
Print Assumptions sel_acts_first.

Theorem view_flag : forall rules u,
  v_flag (re_view rules (der rules u)) = true <-> ng_match rules u.
Proof.
  intros rules u. cbn [re_view v_flag]. rewrite der_map. unfold ng_match.
  induction rules as [|r0 rules IH]; cbn [map any_ng].
  - split; [discriminate|]. intros [i [r [H _]]]. destruct i; discriminate H.
  - rewrite orb_true_iff, andb_true_iff, derw_null, IH,
      (exists_nth_cons (fun r => r_ng r = true /\ matches (r_re r) u)).
    reflexivity.
Qed.

Lemma view_flag_false : forall rules u,
  v_flag (re_view rules (der rules u)) = false <-> ~ ng_match rules u.
Proof. intros rules u. rewrite <- view_flag. symmetry. apply not_true_iff_false. Qed.

Lemma view_lookup_der : forall rules u c, 0 <= c <= 1114111 ->
  lookup (list re) (v_trans (re_view rules (der rules u))) c =
  (if forallb is_empty (der rules (u ++ [c])) then None else Some (der rules (u ++ [c]))).
Proof. intros rules u c Hc. rewrite der_snoc. apply view_lookup. exact Hc. Qed.

Lemma greedy_no_ng : forall rules u, greedy rules -> ~ ng_match rules u.
Proof.
  intros rules u Hg [i [r [Hi [Hng _]]]]. apply nth_error_In in Hi.
  rewrite (Hg r Hi) in Hng. discriminate.
Qed.

Definition in_unicode (c : Z) : Prop := 0 <= c <= 1114111.
Definition is_nil (u : list Z) : bool := match u with [] => true | _ => false end.

Section Machine.
Variable modes : list (list rule).
Variable m : nat.
Notation rules := (nth m modes []).
Notation st := (gsm (list re)).

Definition push (l : st) (c : Z) : option (Z * st) :=
  g_push_rune (list re) (re_auto modes) (re_start modes) (length modes) l c.

(* What PushRune answers when it does not consume (stuck_result).
   - boundary_result, at a token boundary (nothing read: g_fresh): no action
     runs -- an empty match is not a token --: lexEOF iff the input is
     exhausted and no accumulated text is pending, otherwise lexError; the
     state is unchanged;
   - act_result, after a non-empty run: the selected actions, falling through
     to lexError *)
Definition boundary_result (l : st) (c : Z) : option (Z * st) :=
  Some (if (c =? -1) && negb (g_accum l) then lexEOF else lexError, l).

Definition act_result (acts : list (Z * Z)) (l : st) : option (Z * st) :=
  match g_actions (list re) (re_start modes) (length modes) acts l with
  | GCrash _ => None
  | GReturn _ code l' => Some (code, l')
  | GFall _ l' => Some (lexError, l')
  end.

Definition stuck_result (acts : list (Z * Z)) (l : st) (c : Z) : option (Z * st) :=
  if g_fresh l then boundary_result l c else act_result acts l.

(* the machine is in mode m, has read exactly u since the last token boundary;
   its boundary flag g_fresh is set exactly as long as u is empty *)
Definition in_state (l : st) (u : list Z) : Prop :=
  g_mode l = m /\ g_state l = der rules u /\ g_fresh l = is_nil u.

Lemma stuck_result_state : forall acts l c u, in_state l u ->
  stuck_result acts l c = if is_nil u then boundary_result l c else act_result acts l.
Proof. intros acts l c u [_ [_ Hf]]. unfold stuck_result. rewrite Hf. reflexivity. Qed.

Lemma stuck_not_consume : forall acts l c code l',
  stuck_result acts l c = Some (code, l') -> code <> lexConsume.
Proof.
  intros acts [tok s f a md stk] c code l' H.
  unfold stuck_result, boundary_result, act_result in H. cbn [g_fresh g_accum] in H.
  destruct f.
  - injection H as <- _. destruct ((c =? -1) && negb a); discriminate.
  - rewrite g_actions_spec in H.
    destruct (act_spec (length modes) acts md stk) eqn:E; cbn [g_out] in H; try discriminate H;
      injection H as <- _; try discriminate.
    apply act_spec_term_code in E. unfold lexConsume. lia.
Qed.

(* g_push_rune_row at this machine; [stuck_result] is [g_stuck] unfolded *)
Lemma push_eq : forall u c l, in_state l u ->
  push l c =
  match (if v_flag (re_view rules (der rules u)) then None
         else lookup (list re) (v_trans (re_view rules (der rules u))) c) with
  | Some s' => Some (lexConsume, Build_gsm (list re) (g_token l) s' false (g_accum l) m (g_stack l))
  | None => stuck_result (first_acts rules (der rules u)) l c
  end.
Proof.
  intros u c l (Hmode & Hstate & _). unfold push.
  rewrite (g_push_rune_row _ _ _ _ l (re_view rules (der rules u)) c)
    by (unfold re_auto; rewrite Hmode, Hstate; reflexivity).
  rewrite Hmode. reflexivity.
Qed.

Theorem ref_step_consume : forall u c l,
  wf_rules rules -> in_state l u -> ~ ng_match rules u ->
  in_unicode c -> viable rules (u ++ [c]) ->
  push l c = Some (lexConsume,
                   Build_gsm (list re) (g_token l) (der rules (u ++ [c])) false (g_accum l) m (g_stack l)).
Proof.
  intros u c l Hwf Hin Hng Hc Hv.
  rewrite (push_eq u c l Hin), (proj2 (view_flag_false rules u) Hng), (view_lookup_der rules u c Hc),
    (proj2 (der_viable rules (u ++ [c]) Hwf) Hv).
  reflexivity.
Qed.

Theorem ref_step_stuck : forall u c l acts,
  wf_rules rules -> in_state l u -> ~ ng_match rules u ->
  c = -1 \/ (in_unicode c /\ ~ viable rules (u ++ [c])) ->
  sel_acts rules u acts ->
  push l c = stuck_result acts l c.
Proof.
  intros u c l acts Hwf Hin Hng Hc Hsel.
  rewrite (push_eq u c l Hin), (proj2 (view_flag_false rules u) Hng), (sel_acts_first rules u acts Hsel).
  destruct Hc as [->|[Hc Hnv]]; [rewrite view_lookup_eof; reflexivity|].
  rewrite (view_lookup_der rules u c Hc).
  destruct (forallb is_empty (der rules (u ++ [c]))) eqn:E; [reflexivity|].
  exfalso. apply Hnv, (der_viable rules (u ++ [c]) Hwf), E.
Qed.

(* once a marked rule matches the text read so far, nothing more is
   consumed, whatever comes next *)
Theorem ref_step_ng : forall u c l acts,
  in_state l u -> ng_match rules u -> sel_acts rules u acts ->
  push l c = stuck_result acts l c.
Proof.
  intros u c l acts Hin Hng Hsel.
  rewrite (push_eq u c l Hin), (proj2 (view_flag rules u) Hng), (sel_acts_first rules u acts Hsel).
  reflexivity.
Qed.

Theorem ref_step_iff : forall u c l,
  wf_rules rules -> in_state l u -> ~ ng_match rules u -> in_unicode c ->
  ((exists l', push l c = Some (lexConsume, l')) <-> viable rules (u ++ [c])).
Proof.
  intros u c l Hwf Hin Hng Hc. split.
  - intros [l' Hp]. apply (der_viable rules (u ++ [c]) Hwf).
    rewrite (push_eq u c l Hin), (proj2 (view_flag_false rules u) Hng), (view_lookup_der rules u c Hc) in Hp.
    destruct (forallb is_empty (der rules (u ++ [c]))); [exfalso|reflexivity].
    exact (stuck_not_consume _ _ _ _ _ Hp eq_refl).
  - intros Hv. eexists. apply (ref_step_consume u c l Hwf Hin Hng Hc Hv).
Qed.

Lemma ref_step_stops : forall u c l acts,
  wf_rules rules -> in_state l u -> sel_acts rules u acts ->
  c = -1 \/ (in_unicode c /\ ~ viable rules (u ++ [c])) \/ ng_match rules u ->
  push l c = stuck_result acts l c.
Proof.
  intros u c l acts Hwf Hin Hsel Hc.
  destruct (v_flag (re_view rules (der rules u))) eqn:Ef.
  - apply view_flag in Ef. apply (ref_step_ng u c l acts Hin Ef Hsel).
  - apply view_flag_false in Ef. apply (ref_step_stuck u c l acts Hwf Hin Ef); [|exact Hsel].
    destruct Hc as [Hc|[Hc|Hc]]; [left; exact Hc|right; exact Hc|contradiction].
Qed.

Corollary ref_step_no_rule : forall u c l,
  wf_rules rules -> in_state l u -> ~ ng_match rules u ->
  c = -1 \/ (in_unicode c /\ ~ viable rules (u ++ [c])) ->
  no_match rules u ->
  push l c = Some (if is_nil u && (c =? -1) && negb (g_accum l) then lexEOF else lexError, l).
Proof.
  intros u c l Hwf Hin Hng Hc Hnm.
  rewrite (ref_step_stuck u c l [] Hwf Hin Hng Hc (or_intror (conj Hnm eq_refl))).
  rewrite (stuck_result_state _ l c u Hin). unfold boundary_result, act_result.
  destruct u as [|x u]; cbn [is_nil andb g_actions]; reflexivity.
Qed.

Corollary ref_step_boundary : forall c l,
  wf_rules rules -> in_state l [] ->
  c = -1 \/ (in_unicode c /\ ~ viable rules [c]) \/ ng_match rules [] ->
  push l c = Some (if (c =? -1) && negb (g_accum l) then lexEOF else lexError, l).
Proof.
  intros c l Hwf Hin Hc.
  rewrite (ref_step_stops [] c l _ Hwf Hin (sel_acts_exists rules []) Hc).
  apply (stuck_result_state _ l c [] Hin).
Qed.

Fixpoint consume_all (l : st) (cs : list Z) : option st :=
  match cs with
  | [] => Some l
  | c :: cs' =>
    match push l c with
    | Some (code, l') => if code =? lexConsume then consume_all l' cs' else None
    | None => None
    end
  end.

Definition next_char (rest : list Z) : Z := match rest with [] => -1 | c :: _ => c end.

Lemma consume_all_spec : forall v u0 l,
  wf_rules rules -> in_state l u0 -> Forall in_unicode v -> viable rules u0 ->
  (forall v1 v2, v = v1 ++ v2 -> v2 <> [] -> ~ ng_match rules (u0 ++ v1)) ->
  match consume_all l v with
  | Some l1 => viable rules (u0 ++ v) /\ in_state l1 (u0 ++ v) /\
               g_token l1 = g_token l /\ g_stack l1 = g_stack l /\ g_accum l1 = g_accum l
  | None => ~ viable rules (u0 ++ v)
  end.
Proof.
  induction v as [|c v IH]; intros u0 l Hwf Hin Hchars Hv0 Hng; cbn [consume_all].
  - rewrite app_nil_r. auto.
  - assert (Hng0 : ~ ng_match rules u0).
    { rewrite <- (app_nil_r u0). apply (Hng [] (c :: v) eq_refl). discriminate. }
    pose proof (Forall_inv Hchars) as Hc.
    replace (u0 ++ c :: v) with ((u0 ++ [c]) ++ v) by (rewrite <- app_assoc; reflexivity).
    pose proof (ref_step_iff u0 c l Hwf Hin Hng0 Hc) as Hiff.
    destruct (push l c) as [[code l']|] eqn:Ep; [destruct (code =? lexConsume) eqn:Ec|].
    + apply Z.eqb_eq in Ec. subst code.
      pose proof (proj1 Hiff (ex_intro _ l' eq_refl)) as E.
      rewrite (ref_step_consume u0 c l Hwf Hin Hng0 Hc E) in Ep. injection Ep as <-.
      refine (IH (u0 ++ [c]) _ Hwf _ (Forall_inv_tail Hchars) E _).
      { unfold in_state. cbn [g_mode g_state g_fresh]. destruct u0; auto. }
      intros v1 v2 Hvv Hne. rewrite <- app_assoc. apply (Hng (c :: v1) v2); [|exact Hne].
      cbn [app]. rewrite Hvv. reflexivity.
    + intros Hv. apply viable_prefix, Hiff in Hv as [l'' Hp]. injection Hp as -> _. discriminate Ec.
    + intros Hv. apply viable_prefix, Hiff in Hv as [l'' Hp]. discriminate Hp.
Qed.

Lemma consume_iff : forall v u0 l,
  wf_rules rules -> greedy rules -> in_state l u0 -> Forall in_unicode v -> viable rules u0 ->
  ((exists l1, consume_all l v = Some l1) <-> viable rules (u0 ++ v)).
Proof.
  intros v u0 l Hwf Hg Hin Hchars Hv0.
  pose proof (consume_all_spec v u0 l Hwf Hin Hchars Hv0
                (fun v1 _ _ _ => greedy_no_ng rules (u0 ++ v1) Hg)) as Hs.
  destruct (consume_all l v) as [l1|].
  - split; [intros _; apply Hs|intros _; exists l1; reflexivity].
  - split; [intros [l1 H1]; discriminate H1|intros Hv; contradiction].
Qed.

(* what the two theorems below share; c is any character on which the
   machine stops after u *)
Theorem ref_token : forall u l0 acts,
  wf_rules rules -> Forall in_unicode u -> in_state l0 [] -> viable rules u ->
  (forall u1 u2, u = u1 ++ u2 -> u2 <> [] -> ~ ng_match rules u1) ->
  sel_acts rules u acts ->
  exists l1,
    consume_all l0 u = Some l1 /\ in_state l1 u /\
    g_token l1 = g_token l0 /\ g_stack l1 = g_stack l0 /\ g_accum l1 = g_accum l0 /\
    forall c, c = -1 \/ (in_unicode c /\ ~ viable rules (u ++ [c])) \/ ng_match rules u ->
      push l1 c = stuck_result acts l1 c /\
      (u <> [] -> push l1 c = act_result acts l1) /\
      (u = [] -> l1 = l0 /\
         push l1 c = Some (if (c =? -1) && negb (g_accum l0) then lexEOF else lexError, l0)) /\
      forall code l2, push l1 c = Some (code, l2) -> code <> lexConsume.
Proof.
  intros u l0 acts Hwf Hchars Hin0 Hv Hshort Hsel.
  pose proof (consume_all_spec u [] l0 Hwf Hin0 Hchars (viable_prefix rules [] u Hv) Hshort) as Hrun.
  destruct (consume_all l0 u) as [l1|] eqn:H1; [|contradiction].
  destruct Hrun as (_ & H2 & H3 & H4 & H5).
  exists l1. split; [reflexivity|]. repeat (split; [assumption|]).
  intros c Hc. rewrite (ref_step_stops u c l1 acts Hwf H2 Hsel Hc).
  split; [reflexivity|]. split; [|split].
  - intros Hne. destruct u as [|x u0]; [congruence|]. apply (stuck_result_state acts l1 c _ H2).
  - intros ->. cbn [consume_all] in H1. injection H1 as <-. split; [reflexivity|].
    apply (stuck_result_state acts l0 c [] H2).
  - intros code l2 Hp. apply (stuck_not_consume _ _ _ _ _ Hp).
Qed.

(* Greedy mode, the machine at a token boundary, input s; u is the longest
   viable prefix of s.  Every character of u is consumed; on the next one (-1
   at the end of s) the machine stops as [stuck_result] says, with the actions
   of the earliest rule matching exactly u (none: acts = [], lexError).  And a
   prefix of s is consumed completely iff it is viable. *)
Theorem ref_consumes_longest_viable : forall s u rest l0 acts,
  wf_rules rules -> greedy rules -> Forall in_unicode s ->
  in_state l0 [] ->
  s = u ++ rest -> viable rules u ->
  (forall c rest', rest = c :: rest' -> ~ viable rules (u ++ [c])) ->
  sel_acts rules u acts ->
  exists l1,
    consume_all l0 u = Some l1 /\ in_state l1 u /\
    g_token l1 = g_token l0 /\ g_stack l1 = g_stack l0 /\ g_accum l1 = g_accum l0 /\
    push l1 (next_char rest) = stuck_result acts l1 (next_char rest) /\
    (u <> [] -> push l1 (next_char rest) = act_result acts l1) /\
    (u = [] -> l1 = l0 /\
               push l1 (next_char rest) =
               Some (if (next_char rest =? -1) && negb (g_accum l0) then lexEOF else lexError, l0)) /\
    (forall code l2, push l1 (next_char rest) = Some (code, l2) -> code <> lexConsume) /\
    (forall u' rest', s = u' ++ rest' ->
       ((exists l', consume_all l0 u' = Some l') <-> viable rules u')).
Proof.
  intros s u rest l0 acts Hwf Hg Hchars Hin0 Hs Hv Hmax Hsel.
  assert (Hpre : forall u' rest', s = u' ++ rest' -> Forall in_unicode u' /\ Forall in_unicode rest').
  { intros u' rest' Hs'. apply Forall_app. rewrite <- Hs'. exact Hchars. }
  destruct (Hpre u rest Hs) as [Hcu Hcr].
  destruct (ref_token u l0 acts Hwf Hcu Hin0 Hv (fun u1 _ _ _ => greedy_no_ng rules u1 Hg) Hsel)
    as (l1 & H1 & H2 & H3 & H4 & H5 & Hstop).
  destruct (Hstop (next_char rest)) as (Hstuck & Hne & Hnil & Hcode).
  { destruct rest as [|c rest']; [left; reflexivity|right; left].
    split; [apply (Forall_inv Hcr)|apply (Hmax c rest' eq_refl)]. }
  exists l1. repeat (split; [assumption|]).
  intros u' rest' Hs'.
  apply (consume_iff u' [] l0 Hwf Hg Hin0 (proj1 (Hpre u' rest' Hs')) (viable_prefix rules [] u Hv)).
Qed.

(* With non-greedy marks the token ends at the SHORTEST prefix u of the input
   that a marked rule matches exactly: u is consumed and then nothing more,
   whatever follows; the machine stops as in ref_consumes_longest_viable. *)
Theorem ref_ng_shortest : forall u l0 acts,
  wf_rules rules -> Forall in_unicode u -> in_state l0 [] ->
  ng_match rules u ->
  (forall u1 u2, u = u1 ++ u2 -> u2 <> [] -> ~ ng_match rules u1) ->
  sel_acts rules u acts ->
  exists l1,
    consume_all l0 u = Some l1 /\ in_state l1 u /\
    g_token l1 = g_token l0 /\ g_stack l1 = g_stack l0 /\ g_accum l1 = g_accum l0 /\
    forall c, push l1 c = stuck_result acts l1 c /\
              (u <> [] -> push l1 c = act_result acts l1) /\
              (u = [] -> l1 = l0 /\
                 push l1 c = Some (if (c =? -1) && negb (g_accum l0) then lexEOF else lexError, l0)) /\
              forall code l2, push l1 c = Some (code, l2) -> code <> lexConsume.
Proof.
  intros u l0 acts Hwf Hchars Hin0 Hng Hshort Hsel.
  assert (Hv : viable rules u).
  { destruct Hng as (i & r & Hi & _ & Hm). exists i, r, []. rewrite app_nil_r. auto. }
  destruct (ref_token u l0 acts Hwf Hchars Hin0 Hv Hshort Hsel) as (l1 & H1 & H2 & H3 & H4 & H5 & Hstop).
  exists l1. repeat (split; [assumption|]).
  intros c. apply Hstop. right. right. exact Hng.
Qed.

End Machine.

Print Assumptions ref_step_consume.
Print Assumptions ref_step_stuck.
Print Assumptions ref_step_ng.
Print Assumptions ref_step_iff.
Print Assumptions ref_step_no_rule.
Print Assumptions ref_step_boundary.
Print Assumptions ref_consumes_longest_viable.
Print Assumptions ref_ng_shortest.
