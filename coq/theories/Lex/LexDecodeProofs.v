(* On well-formed tables the raw PushRune mirror never crashes and computes
   exactly the view machine over [table_auto].  Both action loops are first
   related to one pure specification [act_spec] over (mode, stack). *)
From Coq Require Import List ZArith Lia Bool.
From Lox Require Import Lex.LexRuntime Lex.LexAuto Lex.LexLookupProofs.
Import ListNotations.
Local Open Scope Z_scope.

Inductive aout :=
| OCrash                                                   (* push of an out-of-range mode *)
| OPopErr (m : nat) (st : list nat)                        (* pop of an empty stack *)
| OTerm (code : Z) (tk : option Z) (m : nat) (st : list nat) (* accept / discard / try-again *)
| OFall (m : nat) (st : list nat).                         (* ran off the end *)

Fixpoint act_spec (nmodes : nat) (acts : list (Z * Z)) (m : nat) (st : list nat) : aout :=
  match acts with
  | [] => OFall m st
  | (ty, param) :: rest =>
    if ty =? 1 then
      if (param <? 0) || (Z.of_nat nmodes <=? param) then OCrash
      else act_spec nmodes rest (Z.to_nat param) (m :: st)
    else if ty =? 2 then
      match st with
      | [] => OPopErr m st
      | m' :: st' => act_spec nmodes rest m' st'
      end
    else if ty =? 3 then OTerm lexAccept (Some param) m st
    else if ty =? 4 then OTerm lexDiscard None m st
    else if ty =? 5 then OTerm lexTryAgain None m st
    else act_spec nmodes rest m st
  end.

Definition sm_out (tok s : Z) (cn ac : bool) (o : aout) : ares :=
  match o with
  | OCrash => ACrash
  | OPopErr m st =>
    AReturn lexError {| sm_token := tok; sm_state := s; sm_consumed := cn; sm_accum := ac;
                        sm_mode := m; sm_stack := st |}
  | OTerm c tk m st =>
    AReturn c {| sm_token := match tk with Some p => p | None => tok end;
                 sm_state := 0; sm_consumed := false; sm_accum := (c =? lexTryAgain);
                 sm_mode := m; sm_stack := st |}
  | OFall m st => AFall {| sm_token := tok; sm_state := s; sm_consumed := cn; sm_accum := ac;
                           sm_mode := m; sm_stack := st |}
  end.

Definition g_out (S : Type) (start : nat -> S) (tok : Z) (s : S) (f ac : bool) (o : aout) : gares S :=
  match o with
  | OCrash => GCrash S
  | OPopErr m st => GReturn S lexError (Build_gsm S tok s f ac m st)
  | OTerm c tk m st =>
    GReturn S c (Build_gsm S (match tk with Some p => p | None => tok end) (start m) true
                           (c =? lexTryAgain) m st)
  | OFall m st => GFall S (Build_gsm S tok s f ac m st)
  end.

Lemma act_type_cases : forall ty : Z,
  ty = 1 \/ ty = 2 \/ ty = 3 \/ ty = 4 \/ ty = 5 \/
  ((ty =? 1) = false /\ (ty =? 2) = false /\ (ty =? 3) = false /\ (ty =? 4) = false /\ (ty =? 5) = false).
Proof. intros ty. lia. Qed.

Lemma take_pairs_length : forall n m i ac, take_pairs n m i = Some ac -> length ac = n.
Proof.
  induction n as [|n IH]; intros m i ac H; cbn [take_pairs] in H.
  - injection H as <-. reflexivity.
  - destruct (nthz m i); [|discriminate]. destruct (nthz m (i + 1)); [|discriminate].
    destruct (take_pairs n m (i + 2)) as [rest|] eqn:Er; [|discriminate].
    injection H as <-. cbn [length]. f_equal. apply (IH m (i + 2) rest Er).
Qed.

(* out of fuel the model answers AFall like a list without terminal action;
   n < fuel keeps that case out *)
Lemma run_actions_spec : forall modes m n i ac,
  take_pairs n m i = Some ac ->
  forall fuel l, (n < fuel)%nat ->
  run_actions modes fuel m i (i + 2 * Z.of_nat n) l
  = sm_out (sm_token l) (sm_state l) (sm_consumed l) (sm_accum l)
           (act_spec (length modes) ac (sm_mode l) (sm_stack l)).
Proof.
  intros modes m. induction n as [|n IH]; intros i ac Htp fuel [tok s cn a md st] Hf; cbn [take_pairs] in Htp;
    cbn [sm_token sm_state sm_consumed sm_accum sm_mode sm_stack].
  - injection Htp as <-. destruct fuel as [|f]; [lia|]. cbn [run_actions act_spec sm_out].
    destruct (i <? i + 2 * Z.of_nat 0) eqn:E; [lia|reflexivity].
  - destruct (nthz m i) as [ty|] eqn:Ea; [|discriminate].
    destruct (nthz m (i + 1)) as [p|] eqn:Eb; [|discriminate].
    destruct (take_pairs n m (i + 2)) as [rest|] eqn:Er; [|discriminate].
    injection Htp as <-.
    destruct fuel as [|f]; [lia|]. cbn [run_actions].
    destruct (i <? i + 2 * Z.of_nat (S n)) eqn:E; [|lia].
    rewrite Ea, Eb. cbn [act_spec sm_token sm_state sm_consumed sm_accum sm_mode sm_stack].
    replace (i + 2 * Z.of_nat (S n)) with (i + 2 + 2 * Z.of_nat n) by lia.
    assert (Hf' : (n < f)%nat) by lia.
    destruct (act_type_cases ty) as [->|[->|[->|[->|[->|(-> & -> & -> & -> & ->)]]]]]; cbn [Z.eqb Pos.eqb];
      try reflexivity.
    + destruct ((p <? 0) || (Z.of_nat (length modes) <=? p)); [reflexivity|].
      rewrite (IH (i + 2) rest Er) by exact Hf'. reflexivity.
    + destruct st as [|m' st']; [reflexivity|]. rewrite (IH (i + 2) rest Er) by exact Hf'. reflexivity.
    + rewrite (IH (i + 2) rest Er) by exact Hf'. reflexivity.
Qed.

Lemma g_actions_spec : forall (S : Type) (start : nat -> S) (nmodes : nat) acts tok s f a md st,
  g_actions S start nmodes acts (Build_gsm S tok s f a md st)
  = g_out S start tok s f a (act_spec nmodes acts md st).
Proof.
  intros S start nmodes. induction acts as [|[ty p] rest IH]; intros tok s f a md st; [reflexivity|].
  cbn [g_actions act_spec g_token g_state g_fresh g_accum g_mode g_stack].
  destruct (act_type_cases ty) as [->|[->|[->|[->|[->|(-> & -> & -> & -> & ->)]]]]]; cbn [Z.eqb Pos.eqb];
    try reflexivity; try apply IH.
  - destruct ((p <? 0) || (Z.of_nat nmodes <=? p)); [reflexivity|apply IH].
  - destruct st as [|m' st']; [reflexivity|apply IH].
Qed.

Definition acts_ok (nm : nat) (acts : list (Z * Z)) : Prop :=
  forall ty p, In (ty, p) acts -> 1 <= ty <= 5 /\ (ty = 1 -> 0 <= p < Z.of_nat nm).

Definition stack_ok (nm : nat) (st : list nat) : Prop := Forall (fun m => (m < nm)%nat) st.

(* acts is the rest of the row's list acts0; a crash shows that [row_wf]
   rejects acts0 *)
Lemma act_spec_inv : forall nm acts0 acts md st,
  incl acts acts0 -> (md < nm)%nat -> stack_ok nm st ->
  match act_spec nm acts md st with
  | OCrash => ~ acts_ok nm acts0
  | OPopErr m' st' | OTerm _ _ m' st' | OFall m' st' => (m' < nm)%nat /\ stack_ok nm st'
  end.
Proof.
  intros nm acts0. induction acts as [|[ty p] rest IH]; intros md st Hincl Hmd Hst; cbn [act_spec];
    [split; assumption|].
  assert (Hrest : incl rest acts0) by (intros x Hx; apply Hincl; right; exact Hx).
  destruct (act_type_cases ty) as [->|[->|[->|[->|[->|(-> & -> & -> & -> & ->)]]]]]; cbn [Z.eqb Pos.eqb];
    try (split; assumption); try (apply IH; assumption).
  - destruct ((p <? 0) || (Z.of_nat nm <=? p)) eqn:C.
    + intros Hok. destruct (Hok 1 p (Hincl _ (or_introl eq_refl))) as [_ Hp]. specialize (Hp eq_refl). lia.
    + apply IH; [exact Hrest|lia|constructor; assumption].
  - destruct st as [|m' st']; [split; assumption|]. inversion Hst; subst. apply IH; assumption.
Qed.

Lemma act_spec_term_code : forall nm acts md st c tk m' st',
  act_spec nm acts md st = OTerm c tk m' st' -> 1 <= c <= 3.
Proof.
  intros nm. induction acts as [|[ty p] rest IH]; intros md st c tk m' st'; cbn [act_spec];
    [discriminate|].
  destruct (act_type_cases ty) as [->|[->|[->|[->|[->|(-> & -> & -> & -> & ->)]]]]];
    cbn [Z.eqb Pos.eqb].
  - destruct ((p <? 0) || (Z.of_nat nm <=? p)); [discriminate|]. apply IH.
  - destruct st as [|m0 st0]; [discriminate|]. apply IH.
  - intros [= <- _ _ _]. unfold lexAccept. lia.
  - intros [= <- _ _ _]. unfold lexDiscard. lia.
  - intros [= <- _ _ _]. unfold lexTryAgain. lia.
  - apply IH.
Qed.

Record row_ok (nm : nat) (n : Z) (v : view Z) : Prop := {
  ro_sorted : sorted_disjoint (-1) (v_trans v) = true;
  ro_trans : forall lo hi t, In (lo, hi, t) (v_trans v) -> hi <= 1114111 /\ 0 <= t < n;
  ro_acts : acts_ok nm (v_acts v);
}.

Lemma row_wf_ok : forall nm n v, row_wf (Z.of_nat nm) n v = true -> row_ok nm n v.
Proof.
  intros nm n v H. unfold row_wf in H.
  apply andb_true_iff in H. destruct H as [H H3].
  apply andb_true_iff in H. destruct H as [H1 H2].
  rewrite forallb_forall in H2, H3.
  constructor.
  - exact H1.
  - intros lo hi t Hin. specialize (H2 _ Hin). cbn beta iota in H2. lia.
  - intros ty p Hin. specialize (H3 _ Hin). cbn beta iota in H3.
    destruct (ty =? 1) eqn:T1; lia.
Qed.

Lemma modes_wf_mode : forall modes md mode,
  modes_wf modes = true -> nth_error modes md = Some mode ->
  mode_wf (Z.of_nat (length modes)) mode = true.
Proof.
  intros modes md mode H Hn. unfold modes_wf in H.
  apply andb_true_iff in H. destruct H as [_ H].
  rewrite forallb_forall in H. apply H. eapply nth_error_In. exact Hn.
Qed.

Lemma modes_wf_nonempty : forall modes, modes_wf modes = true -> (0 < length modes)%nat.
Proof.
  intros modes H. unfold modes_wf in H. apply andb_true_iff in H. destruct H as [H _].
  destruct (length modes); [discriminate|lia].
Qed.

Lemma forallb_seqZ : forall (f : nat -> bool) n s,
  forallb f (seq 0 (Z.to_nat n)) = true -> 0 <= s < n -> f (Z.to_nat s) = true.
Proof.
  intros f n s H Hs. rewrite forallb_forall in H. apply H. apply in_seq. lia.
Qed.

Lemma mode_wf_row : forall nm mode s,
  mode_wf (Z.of_nat nm) mode = true -> 0 <= s < mode_nstates mode ->
  exists v, decode_row mode s = Some v /\ row_ok nm (mode_nstates mode) v.
Proof.
  intros nm mode s H Hs. unfold mode_wf in H. cbv zeta in H.
  apply andb_true_iff in H. destruct H as [_ H].
  apply (forallb_seqZ _ _ s) in H; [|exact Hs]. cbv beta in H. rewrite Z2Nat.id in H by lia.
  destruct (decode_row mode s) as [v|]; [|discriminate].
  exists v. split; [reflexivity|]. apply row_wf_ok. exact H.
Qed.

Lemma progress_row : forall mode s v,
  mode_progress_ok mode = true -> 0 <= s < mode_nstates mode ->
  decode_row mode s = Some v ->
  forall lo hi t, In (lo, hi, t) (v_trans v) -> t <> 0.
Proof.
  intros mode s v H Hs Hdec lo hi t Hin. unfold mode_progress_ok in H. cbv zeta in H.
  apply andb_true_iff in H. destruct H as [H _].
  apply (forallb_seqZ _ _ s) in H; [|exact Hs]. cbv beta in H. rewrite Z2Nat.id, Hdec in H by lia.
  rewrite forallb_forall in H. specialize (H _ Hin). cbn [snd] in H. lia.
Qed.

Lemma progress_row0 : forall mode v,
  mode_progress_ok mode = true -> decode_row mode 0 = Some v ->
  v_flag v = false.
Proof.
  intros mode v H Hdec. unfold mode_progress_ok in H. cbv zeta in H.
  apply andb_true_iff in H. destruct H as [_ H]. rewrite Hdec in H.
  destruct (v_flag v); [discriminate|reflexivity].
Qed.

Lemma progress_mode : forall modes md mode,
  forallb mode_progress_ok modes = true -> nth_error modes md = Some mode ->
  mode_progress_ok mode = true.
Proof.
  intros modes md mode H Hn. rewrite forallb_forall in H. apply H. eapply nth_error_In. exact Hn.
Qed.

(* the answer at a token boundary: no action runs there *)
Definition stuck_code (r : Z) (accum : bool) : Z :=
  if (r =? -1) && negb accum then lexEOF else lexError.

(* The answer after the action loop has run.  It runs only when something has
   been consumed, and a list that falls through leaves that flag as it is, so
   the EOF test PushRune makes on a fall-through fails: the answer is lexError. *)
Definition sm_after (x : ares) : option (Z * sm) :=
  match x with
  | ACrash => None
  | AReturn c l => Some (c, l)
  | AFall l => Some (lexError, l)
  end.

Definition g_after {S : Type} (x : gares S) : option (Z * gsm S) :=
  match x with
  | GCrash _ => None
  | GReturn _ c l => Some (c, l)
  | GFall _ l => Some (lexError, l)
  end.

(* what PushRune answers when it does not consume *)
Definition g_stuck (S : Type) (start : nat -> S) (nmodes : nat) (acts : list (Z * Z)) (l : gsm S) (r : Z)
  : option (Z * gsm S) :=
  if g_fresh l then Some (stuck_code r (g_accum l), l)
  else g_after (g_actions S start nmodes acts l).

Lemma g_push_rune_row : forall (S : Type) (A : nat -> S -> option (view S)) start nmodes (l : gsm S) v r,
  A (g_mode l) (g_state l) = Some v ->
  g_push_rune S A start nmodes l r =
  match (if v_flag v then None else lookup S (v_trans v) r) with
  | Some t => Some (lexConsume, Build_gsm S (g_token l) t false (g_accum l) (g_mode l) (g_stack l))
  | None => g_stuck S start nmodes (v_acts v) l r
  end.
Proof.
  intros S A start nmodes [tok s f a md st] v r HA. unfold g_push_rune, g_stuck. rewrite HA.
  destruct (if v_flag v then None else lookup S (v_trans v) r); [reflexivity|].
  cbn [g_fresh g_accum]. destruct f.
  - unfold stuck_code. cbn [g_fresh g_accum andb]. destruct ((r =? -1) && negb a); reflexivity.
  - rewrite g_actions_spec. destruct (act_spec nmodes (v_acts v) md st); reflexivity.
Qed.

Lemma push_rune_row : forall modes l mode v r,
  nth_error modes (sm_mode l) = Some mode -> decode_row mode (sm_state l) = Some v ->
  sorted_disjoint (-1) (v_trans v) = true ->
  push_rune modes l r =
  match (if v_flag v then None else lookup Z (v_trans v) r) with
  | Some t => Some (lexConsume, {| sm_token := sm_token l; sm_state := t; sm_consumed := true;
                                   sm_accum := sm_accum l; sm_mode := sm_mode l; sm_stack := sm_stack l |})
  | None =>
    if sm_consumed l
    then sm_after (sm_out (sm_token l) (sm_state l) true (sm_accum l)
                          (act_spec (length modes) (v_acts v) (sm_mode l) (sm_stack l)))
    else Some (stuck_code r (sm_accum l), l)
  end.
Proof.
  intros modes l mode v r Emode Hdec Hsorted.
  destruct (decode_row_inv mode _ v Hdec) as
    [i0 [count [flags [goto_n [n [E0 [E1 [E2 [E3 [Hg [Hc [Hf [Ht Hp]]]]]]]]]]]]].
  unfold push_rune. rewrite Emode, E0, E1. cbv zeta.
  replace (i0 + 1 + 1) with (i0 + 2) by lia. rewrite E2, E3.
  replace (i0 + 1 + 2) with (i0 + 3) by lia.
  replace (i0 + 3 + goto_n * 3) with (i0 + 3 + 3 * goto_n) by lia.
  replace (i0 + 1 + count) with (i0 + 3 + 3 * goto_n + 2 * Z.of_nat n) by lia.
  rewrite (run_actions_spec modes mode _ _ _ Hp) by lia.
  rewrite Hf.
  assert (Hfound : (if Z.land flags 1 =? 0
                    then bsearch (S (Z.to_nat goto_n)) mode (i0 + 3) r 0 goto_n else Some None)
                   = Some (if negb (Z.land flags 1 =? 0) then None else lookup Z (v_trans v) r)).
  { destruct (Z.land flags 1 =? 0); [|reflexivity].
    apply (bsearch_triples mode (i0 + 3) goto_n (v_trans v) (-1) r Ht Hsorted). }
  rewrite Hfound.
  destruct (if negb (Z.land flags 1 =? 0) then None else lookup Z (v_trans v) r); [reflexivity|].
  destruct l as [tok s cn a md st]. cbn [sm_token sm_state sm_consumed sm_accum sm_mode sm_stack].
  destruct cn; cbn [negb].
  - destruct (act_spec (length modes) (v_acts v) md st); reflexivity.
  - unfold stuck_code. cbn [sm_consumed sm_accum negb andb]. destruct ((r =? -1) && negb a); reflexivity.
Qed.

Definition to_gsm (l : sm) : gsm Z :=
  Build_gsm Z (sm_token l) (sm_state l) (negb (sm_consumed l)) (sm_accum l) (sm_mode l) (sm_stack l).

(* the part of sm_inv that holds after every answer of PushRune (sm_inv itself
   only when the code is not lexError: push_rune_inv) *)
Definition sm_inv_w (modes : list (list Z)) (l : sm) : Prop :=
  (sm_mode l < length modes)%nat /\ stack_ok (length modes) (sm_stack l).

Definition sm_inv (modes : list (list Z)) (l : sm) : Prop :=
  sm_inv_w modes l /\ 0 <= sm_state l < mode_nstates (nth (sm_mode l) modes []).

Lemma nstates_pos : forall modes md,
  modes_wf modes = true -> (md < length modes)%nat -> 0 < mode_nstates (nth md modes []).
Proof.
  intros modes md Hwf Hmd.
  destruct (nth_error modes md) as [mode|] eqn:E; [|apply nth_error_None in E; lia].
  rewrite (nth_error_nth _ _ _ E).
  pose proof (modes_wf_mode _ _ _ Hwf E) as H. unfold mode_wf in H. cbv zeta in H.
  apply andb_true_iff in H. destruct H as [H _]. lia.
Qed.

Lemma sm_inv_state0 : forall modes tok cn a md st,
  modes_wf modes = true ->
  sm_inv_w modes {| sm_token := tok; sm_state := 0; sm_consumed := cn; sm_accum := a;
                    sm_mode := md; sm_stack := st |} ->
  sm_inv modes {| sm_token := tok; sm_state := 0; sm_consumed := cn; sm_accum := a;
                  sm_mode := md; sm_stack := st |}.
Proof.
  intros modes tok cn a md st Hwf Hw. split; [exact Hw|]. cbn [sm_state sm_mode].
  pose proof (nstates_pos modes md Hwf (proj1 Hw)). lia.
Qed.

Lemma sm_inv_reset : forall modes l,
  modes_wf modes = true -> sm_inv_w modes l -> sm_inv modes (sm_reset l).
Proof.
  intros modes l Hwf [_ Hst]. apply sm_inv_state0; [exact Hwf|].
  split; [exact (modes_wf_nonempty modes Hwf)|exact Hst].
Qed.

Lemma sm_inv_init : forall modes, modes_wf modes = true -> sm_inv modes sm_init.
Proof.
  intros modes Hwf. apply (sm_inv_reset modes sm_init Hwf).
  split; [exact (modes_wf_nonempty modes Hwf)|constructor].
Qed.

Lemma sm_inv_row : forall modes l,
  modes_wf modes = true -> sm_inv modes l ->
  exists mode v, nth_error modes (sm_mode l) = Some mode /\ decode_row mode (sm_state l) = Some v /\
                 row_ok (length modes) (mode_nstates mode) v.
Proof.
  intros modes l Hwf [[Hmd _] Hs].
  destruct (nth_error modes (sm_mode l)) as [mode|] eqn:Emode; [|apply nth_error_None in Emode; lia].
  rewrite (nth_error_nth _ _ _ Emode) in Hs.
  destruct (mode_wf_row _ _ _ (modes_wf_mode _ _ _ Hwf Emode) Hs) as [v [Hdec Hrow]].
  exists mode, v. auto.
Qed.

(* NOTE: the state-range invariant is only claimed when the code is not
   lexError: an action list [push m'] (or a failing pop after a successful
   one) without a terminal action leaves the old state number in the new mode.
   simplelexer calls Reset after every error, which restores it. *)
Lemma push_rune_inv : forall modes l r,
  modes_wf modes = true -> sm_inv modes l ->
  exists c l', push_rune modes l r = Some (c, l') /\ sm_inv_w modes l' /\
    (c <> lexError -> sm_inv modes l') /\ (c = lexConsume -> 0 <= r).
Proof.
  intros modes l r Hwf Hinv.
  destruct (sm_inv_row modes l Hwf Hinv) as (mode & v & Emode & Hdec & [Hsorted Htrans Hacts]).
  rewrite (push_rune_row modes l mode v r Emode Hdec Hsorted).
  destruct Hinv as [[Hmd Hst] Hs].
  destruct (if v_flag v then None else lookup Z (v_trans v) r) as [t|] eqn:Elk.
  - assert (Hlk : lookup Z (v_trans v) r = Some t) by (destruct (v_flag v); [discriminate|exact Elk]).
    destruct (lookup_some_in Z _ _ _ Hlk) as [lo [hi [Hin Hr]]].
    destruct (Htrans _ _ _ Hin) as [_ Ht]. destruct (sorted_in _ _ _ _ _ Hsorted Hin) as [Hlo _].
    eexists _, _. split; [reflexivity|]. split; [split; assumption|]. split; [|intros _; lia].
    intros _. split; [split; assumption|]. cbn [sm_state sm_mode]. rewrite (nth_error_nth _ _ _ Emode). exact Ht.
  - destruct (sm_consumed l).
    2:{ eexists _, _. split; [reflexivity|]. split; [split; assumption|].
        split; [intros _; split; [split|]; assumption|].
        unfold stuck_code. destruct ((r =? -1) && negb (sm_accum l)); discriminate. }
    pose proof (act_spec_inv (length modes) (v_acts v) (v_acts v) _ _ (incl_refl _) Hmd Hst) as Hok.
    destruct (act_spec (length modes) (v_acts v) (sm_mode l) (sm_stack l))
      as [|m' st'|c tk m' st'|m' st'] eqn:Eact; [contradiction| | |]; cbn [sm_out sm_after].
    + eexists _, _. split; [reflexivity|]. split; [exact Hok|].
      split; [intros Hc; contradiction Hc; reflexivity|discriminate].
    + eexists _, _. split; [reflexivity|]. split; [exact Hok|].
      apply act_spec_term_code in Eact. split; [|unfold lexConsume; lia].
      intros _. apply sm_inv_state0; [exact Hwf|exact Hok].
    + eexists _, _. split; [reflexivity|]. split; [exact Hok|].
      split; [intros Hc; contradiction Hc; reflexivity|discriminate].
Qed.

Theorem push_rune_decode : forall modes l r,
  modes_wf modes = true -> sm_inv modes l ->
  g_push_rune Z (table_auto modes) (fun _ => 0) (length modes) (to_gsm l) r =
  option_map (fun cl => (fst cl, to_gsm (snd cl))) (push_rune modes l r).
Proof.
  intros modes l r Hwf Hinv.
  destruct (sm_inv_row modes l Hwf Hinv) as (mode & v & Emode & Hdec & [Hsorted _ _]).
  rewrite (push_rune_row modes l mode v r Emode Hdec Hsorted).
  rewrite (g_push_rune_row Z (table_auto modes) (fun _ => 0) (length modes) (to_gsm l) v r)
    by (unfold table_auto; cbn [to_gsm g_mode g_state]; rewrite Emode; exact Hdec).
  destruct (if v_flag v then None else lookup Z (v_trans v) r); [reflexivity|].
  destruct l as [tok s cn a md st]. unfold g_stuck, to_gsm.
  cbn [g_fresh g_accum sm_token sm_state sm_consumed sm_accum sm_mode sm_stack].
  destruct cn; cbn [negb]; [|reflexivity].
  rewrite g_actions_spec. destruct (act_spec (length modes) (v_acts v) md st); reflexivity.
Qed.
Print Assumptions push_rune_decode.
