(* Product exploration deciding that the decoded table and a reference
   automaton behave identically on every input: a closed, locally consistent
   relation between their states.  Generic in the reference's state type.
   [equiv_check] returns the list of visited pairs on success, or a
   distinguishing path (one representative code point per step). *)
From Coq Require Import List ZArith Bool.
From Lox Require Import Lex.LexRuntime Lex.LexAuto.
Import ListNotations.
Local Open Scope Z_scope.

Section Equiv.
Variable R : Type.
Variable reqb : R -> R -> bool.
Variable modes : list (list Z).
Variable RA : nat -> R -> option (view R).
Variable rstart : nat -> R.

Definition pair := (nat * Z * R)%type.     (* mode, table state, reference state *)

Definition pair_eqb (a b : pair) : bool :=
  let '(m, s, r) := a in let '(m', s', r') := b in
  Nat.eqb m m' && (s =? s') && reqb r r'.

Definition acts_eqb (a b : list (Z * Z)) : bool :=
  (Nat.eqb (length a) (length b)) &&
  forallb (fun p => (fst (fst p) =? fst (snd p)) && (snd (fst p) =? snd (snd p))) (combine a b).

(* boundary points of a row: every lo and every hi+1 (check_pair adds 0 and the EOF rune -1) *)
Definition bounds_of {X} (tr : list (Z * Z * X)) : list Z :=
  flat_map (fun t => let '(lo, hi, _) := t in [lo; hi + 1]) tr.

Inductive verdict :=
| VOk (visited : list pair)
| VDiff (path : list Z) (why : Z)      (* why: 1 flag, 2 actions, 3 transition defined on one side, 5 bad row.  Re-entering state 0 in the middle of
   a token is fine: the run-time tracks the token boundary with its own flag (g_fresh), not with the state number *)
| VFuel.

(* check one pair; returns the successor pairs to visit *)
Definition check_pair (p : pair) : option (list (Z * pair)) * Z :=
  let '(m, s, r) := p in
  match table_auto modes m s, RA m r with
  | Some vt, Some vr =>
    if negb (Bool.eqb (v_flag vt) (v_flag vr)) then (None, 1)
    else if negb (acts_eqb (v_acts vt) (v_acts vr)) then (None, 2)
    else if v_flag vt then (Some [], 0)
    else
      let pts := filter (fun b => (-1 <=? b) && (b <=? 1114111))
                        (-1 :: 0 :: bounds_of (v_trans vt) ++ bounds_of (v_trans vr)) in
      let step b :=
        match lookup Z (v_trans vt) b, lookup R (v_trans vr) b with
        | None, None => Some None
        | Some s', Some r' => Some (Some (b, (m, s', r')))
        | _, _ => None
        end in
      if forallb (fun b => match step b with Some _ => true | None => false end) pts
      then (Some (flat_map (fun b => match step b with Some (Some x) => [x] | _ => [] end) pts), 0)
      else
        (None, 3)
  | _, _ => (None, 5)
  end.

Definition path_to (paths : list (pair * list Z)) (p : pair) : list Z :=
  match find (fun x => pair_eqb (fst x) p) paths with
  | Some (_, l) => l
  | None => []
  end.

Fixpoint explore (fuel : nat) (work : list (pair * list Z)) (visited : list pair) : verdict :=
  match fuel with
  | O => VFuel
  | S f =>
    match work with
    | [] => VOk visited
    | (p, path) :: rest =>
      if existsb (pair_eqb p) visited then explore f rest visited
      else
        match check_pair p with
        | (None, why) => VDiff (rev path) why
        | (Some succs, _) =>
          explore f (rest ++ map (fun bp => (snd bp, fst bp :: path)) succs) (p :: visited)
        end
    end
  end.

Definition equiv_check (fuel : nat) : verdict :=
  explore fuel (map (fun m => ((m, 0, rstart m), [])) (seq 0 (length modes))) [].

(* the self-contained acceptance test used by the theorems: every visited pair
   is locally consistent, every successor is visited, the start pairs are
   visited.  (What explore returns satisfies it; the theorem is about this
   predicate, so explore itself needs no proof.) *)
Definition closed (visited : list pair) : bool :=
  forallb (fun m => existsb (pair_eqb (m, 0, rstart m)) visited) (seq 0 (length modes)) &&
  forallb (fun p =>
    match check_pair p with
    | (Some succs, _) => forallb (fun bp => existsb (pair_eqb (snd bp)) visited) succs
    | (None, _) => false
    end) visited.

End Equiv.
