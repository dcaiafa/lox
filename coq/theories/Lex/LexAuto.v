(* Automaton-level view of a lexer: per mode, per state, a non-greedy flag, a
   list of range transitions and a list of action pairs.  [decode_row] reads
   this view out of the emitted arrays; [g_push_rune] is PushRune over a view
   with an arbitrary state type, so that the same semantics can be run on the
   decoded table, on the powerset of the NFA it was built from, and on
   derivatives of the rules. No proofs in this file. *)
From Coq Require Import List ZArith Bool.
From Lox Require Import Lex.LexRuntime.
Import ListNotations.
Local Open Scope Z_scope.

Record view (S : Type) := {
  v_flag : bool;                         (* non-greedy accepting *)
  v_trans : list (Z * Z * S);            (* [lo, hi] -> successor *)
  v_acts : list (Z * Z);                 (* (type, parameter) pairs in order *)
}.
Arguments v_flag {S}. Arguments v_trans {S}. Arguments v_acts {S}.

(* ---- decoding a _lexerModeN array ---- *)

Fixpoint take_triples (n : nat) (m : list Z) (i : Z) : option (list (Z * Z * Z)) :=
  match n with
  | O => Some []
  | S n' =>
    match nthz m i, nthz m (i + 1), nthz m (i + 2), take_triples n' m (i + 3) with
    | Some a, Some b, Some c, Some rest => Some ((a, b, c) :: rest)
    | _, _, _, _ => None
    end
  end.

Fixpoint take_pairs (n : nat) (m : list Z) (i : Z) : option (list (Z * Z)) :=
  match n with
  | O => Some []
  | S n' =>
    match nthz m i, nthz m (i + 1), take_pairs n' m (i + 2) with
    | Some a, Some b, Some rest => Some ((a, b) :: rest)
    | _, _, _ => None
    end
  end.

(* the row of state s in mode array m *)
Definition decode_row (m : list Z) (s : Z) : option (view Z) :=
  match nthz m s with
  | None => None
  | Some i0 =>
    match nthz m i0 with
    | None => None
    | Some count =>
      match nthz m (i0 + 1), nthz m (i0 + 2) with
      | Some flags, Some goto_n =>
        let rest := count - 2 - 3 * goto_n in
        if (goto_n <? 0) || (rest <? 0) || negb (Z.even rest) then None
        else
          match take_triples (Z.to_nat goto_n) m (i0 + 3),
                take_pairs (Z.to_nat (rest / 2)) m (i0 + 3 + 3 * goto_n) with
          | Some tr, Some ac =>
            Some {| v_flag := negb (Z.land flags 1 =? 0); v_trans := tr; v_acts := ac |}
          | _, _ => None
          end
      | _, _ => None
      end
    end
  end.

(* ---- structural well-formedness of an emitted mode table ---- *)

Fixpoint sorted_disjoint (prev : Z) (tr : list (Z * Z * Z)) : bool :=
  match tr with
  | [] => true
  | (lo, hi, _) :: rest => (prev <? lo) && (lo <=? hi) && sorted_disjoint hi rest
  end.

Definition row_wf (nmodes : Z) (nstates : Z) (v : view Z) : bool :=
  sorted_disjoint (-1) (v_trans v) &&
  forallb (fun t => let '(_, hi, s) := t in (hi <=? 1114111) && (0 <=? s) && (s <? nstates)) (v_trans v) &&
  forallb (fun a => let '(ty, p) := a in
             (1 <=? ty) && (ty <=? 5) &&
             (if ty =? 1 then (0 <=? p) && (p <? nmodes) else true)) (v_acts v).

(* number of states of a mode array: the index vector is as long as its first
   row offset (Array() puts maxIndex+1 index entries first, and state 0's row
   is the first row added) *)
Definition mode_nstates (m : list Z) : Z :=
  match nthz m 0 with Some i0 => i0 | None => 0 end.

Definition mode_wf (nmodes : Z) (m : list Z) : bool :=
  let n := mode_nstates m in
  (0 <? n) &&
  forallb (fun s => match decode_row m (Z.of_nat s) with
                    | Some v => row_wf nmodes n v
                    | None => false
                    end) (seq 0 (Z.to_nat n)).

Definition modes_wf (modes : list (list Z)) : bool :=
  negb (Nat.eqb (length modes) 0) &&
  forallb (mode_wf (Z.of_nat (length modes))) modes.

(* no transition of any state re-enters state 0, and state 0 is not flagged.
   No theorem assumes it: the run-time tells the token boundary by a flag of
   its own (sm_consumed, here g_fresh), not by the state number *)
Definition mode_progress_ok (m : list Z) : bool :=
  let n := mode_nstates m in
  forallb (fun s => match decode_row m (Z.of_nat s) with
                    | Some v => forallb (fun t => negb (snd t =? 0)) (v_trans v)
                    | None => false
                    end) (seq 0 (Z.to_nat n)) &&
  match decode_row m 0 with
  | Some v => negb (v_flag v)
  | None => false
  end.

(* in every row, nothing follows an accept / discard / accum pair *)
Fixpoint terminal_last (acts : list (Z * Z)) : bool :=
  match acts with
  | [] => true
  | (ty, _) :: rest =>
    if (3 <=? ty) && (ty <=? 5) then match rest with [] => true | _ => false end
    else terminal_last rest
  end.

Definition mode_terminal_last (m : list Z) : bool :=
  let n := mode_nstates m in
  forallb (fun s => match decode_row m (Z.of_nat s) with
                    | Some v => terminal_last (v_acts v)
                    | None => false
                    end) (seq 0 (Z.to_nat n)).

(* ---- PushRune over views ---- *)

Section Generic.
Variable S : Type.
Variable A : nat -> S -> option (view S).    (* mode -> state -> row *)
Variable start : nat -> S.                   (* start state of a mode *)
Variable nmodes : nat.

Record gsm := {
  g_token : Z;
  g_state : S;
  g_fresh : bool;              (* nothing consumed since the last boundary *)
  g_accum : bool;              (* text of an action-less fragment is pending *)
  g_mode : nat;
  g_stack : list nat;
}.

Fixpoint lookup (tr : list (Z * Z * S)) (r : Z) : option S :=
  match tr with
  | [] => None
  | (lo, hi, s) :: rest => if (lo <=? r) && (r <=? hi) then Some s else lookup rest r
  end.

Inductive gares :=
| GReturn (code : Z) (l : gsm)
| GFall (l : gsm)
| GCrash.

Definition at_start (l : gsm) (code : Z) (tok : Z) : gsm :=
  {| g_token := tok; g_state := start (g_mode l); g_fresh := true;
     g_accum := (code =? lexTryAgain);
     g_mode := g_mode l; g_stack := g_stack l |}.

Fixpoint g_actions (acts : list (Z * Z)) (l : gsm) : gares :=
  match acts with
  | [] => GFall l
  | (ty, param) :: rest =>
    if ty =? 1 then
      if (param <? 0) || (Z.of_nat nmodes <=? param) then GCrash
      else g_actions rest {| g_token := g_token l; g_state := g_state l; g_fresh := g_fresh l;
                             g_accum := g_accum l;
                             g_mode := Z.to_nat param; g_stack := g_mode l :: g_stack l |}
    else if ty =? 2 then
      match g_stack l with
      | [] => GReturn lexError l
      | m :: st => g_actions rest {| g_token := g_token l; g_state := g_state l; g_fresh := g_fresh l;
                                     g_accum := g_accum l;
                                     g_mode := m; g_stack := st |}
      end
    else if ty =? 3 then GReturn lexAccept (at_start l lexAccept param)
    else if ty =? 4 then GReturn lexDiscard (at_start l lexDiscard (g_token l))
    else if ty =? 5 then GReturn lexTryAgain (at_start l lexTryAgain (g_token l))
    else g_actions rest l
  end.

Definition g_push_rune (l : gsm) (r : Z) : option (Z * gsm) :=
  match A (g_mode l) (g_state l) with
  | None => None
  | Some v =>
    match (if v_flag v then None else lookup (v_trans v) r) with
    | Some s' =>
      Some (lexConsume, {| g_token := g_token l; g_state := s'; g_fresh := false;
                           g_accum := g_accum l;
                           g_mode := g_mode l; g_stack := g_stack l |})
    | None =>
      (* at a token boundary an empty match is not a token: the actions are skipped *)
      match (if g_fresh l then GFall l else g_actions (v_acts v) l) with
      | GCrash => None
      | GReturn code l' => Some (code, l')
      | GFall l' =>
        if g_fresh l' && (r =? -1) && negb (g_accum l')
        then Some (lexEOF, l') else Some (lexError, l')
      end
    end
  end.

Definition g_reset (l : gsm) : gsm :=
  {| g_token := g_token l; g_state := start O; g_fresh := true; g_accum := false;
     g_mode := O; g_stack := g_stack l |}.

Definition g_init : gsm :=
  {| g_token := 0; g_state := start O; g_fresh := true; g_accum := false; g_mode := O; g_stack := [] |}.

(* the reference driver over a view automaton *)
Definition g_lex (fuel : nat) (inp : list (Z * Z)) : lres :=
  lex_input gsm g_push_rune g_token g_reset g_init fuel inp.

End Generic.

Arguments g_token {S}. Arguments g_state {S}. Arguments g_fresh {S}. Arguments g_accum {S}.
Arguments g_mode {S}. Arguments g_stack {S}.

(* the view automaton of the emitted tables *)
Definition table_auto (modes : list (list Z)) (m : nat) (s : Z) : option (view Z) :=
  match nth_error modes m with
  | Some arr => decode_row arr s
  | None => None
  end.
