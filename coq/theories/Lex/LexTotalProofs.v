(* The segments the lexer reports tile the input and its EOF
   segment is empty, whatever the tables; on well-formed tables it terminates
   on every input without crashing. *)
From Coq Require Import List ZArith Lia Bool.
From Lox Require Import Base.ListFacts Lex.LexRuntime Lex.LexAuto Lex.LexDecodeProofs Lex.LexDriverProofs.
Import ListNotations.
Local Open Scope Z_scope.

Definition chars_ok (rest : list (Z * Z)) : Prop := Forall (fun p => 0 <= fst p) rest.

Lemma chars_ok_eof : forall rest, chars_ok rest -> char_of rest = -1 -> rest = [].
Proof.
  intros [|[r w] rest] H E; [reflexivity|]. cbn [char_of] in E. inversion H; subst.
  cbn [fst] in *. lia.
Qed.

Lemma consume_ro_len : forall rest off,
  (length (fst (consume_ro rest off)) <= length rest)%nat /\
  (rest <> [] -> (length (fst (consume_ro rest off)) < length rest)%nat).
Proof.
  intros [|[r w] rest] off; cbn [consume_ro fst length]; split; try lia. intros H. contradiction.
Qed.

Lemma skip_ro_len : forall f rest off, (length (fst (skip_ro f rest off)) <= length rest)%nat.
Proof.
  induction f as [|f IH]; intros rest off; cbn [skip_ro]; [cbn [fst]; lia|].
  destruct ((char_of rest =? 10) || (char_of rest =? -1)); [cbn [fst]; lia|].
  pose proof (IH (fst (consume_ro rest off)) (snd (consume_ro rest off))).
  pose proof (consume_ro_len rest off). lia.
Qed.

Lemma error_ro_len : forall rest off,
  (length (fst (error_ro rest off)) <= length rest)%nat /\
  (rest <> [] -> (length (fst (error_ro rest off)) < length rest)%nat).
Proof.
  intros rest off. unfold error_ro. set (p := skip_ro (S (length rest)) rest off).
  pose proof (skip_ro_len (S (length rest)) rest off) as H1. fold p in H1.
  pose proof (consume_ro_len (fst p) (snd p)) as [H2 H3].
  split; [lia|]. intros Hne.
  destruct (fst p) as [|q l] eqn:E.
  - cbn [consume_ro fst length]. destruct rest; [contradiction|cbn [length]; lia].
  - assert (q :: l <> []) by discriminate. specialize (H3 H). lia.
Qed.

Lemma run_actions_flags : forall modes fuel mode i e l,
  match run_actions modes fuel mode i e l with
  | AReturn c l' =>
    c = lexError \/
    ((c = lexAccept \/ c = lexDiscard \/ c = lexTryAgain) /\
     sm_consumed l' = false /\ sm_accum l' = (c =? lexTryAgain))
  | AFall l' => sm_consumed l' = sm_consumed l /\ sm_accum l' = sm_accum l
  | ACrash => True
  end.
Proof.
  intros modes. induction fuel as [|f IH]; intros mode i e l; cbn [run_actions]; [split; reflexivity|].
  destruct (i <? e); [|split; reflexivity].
  destruct (nthz mode i) as [ty|]; [|exact I].
  destruct (nthz mode (i + 1)) as [p|]; [|exact I].
  destruct (act_type_cases ty) as [->|[->|[->|[->|[->|(-> & -> & -> & -> & ->)]]]]]; cbn [Z.eqb Pos.eqb].
  - destruct ((p <? 0) || (Z.of_nat (length modes) <=? p)); [exact I|]. exact (IH mode (i + 2) e _).
  - destruct (sm_stack l); [left; reflexivity|]. exact (IH mode (i + 2) e _).
  - right. split; [left; reflexivity|split; reflexivity].
  - right. split; [right; left; reflexivity|split; reflexivity].
  - right. split; [right; right; reflexivity|split; reflexivity].
  - apply IH.
Qed.

Lemma push_rune_class : forall modes l r c l',
  push_rune modes l r = Some (c, l') ->
  (c = lexConsume /\ sm_consumed l' = true /\ sm_accum l' = sm_accum l) \/
  ((c = lexAccept \/ c = lexDiscard \/ c = lexTryAgain) /\
   sm_consumed l' = false /\ sm_consumed l = true /\ sm_accum l' = (c =? lexTryAgain)) \/
  (c = lexEOF /\ r = -1 /\ sm_consumed l = false /\ sm_accum l = false) \/
  (c = lexError /\ (sm_consumed l = false -> r <> -1 \/ sm_accum l = true)).
Proof.
  intros modes l r c l' H. unfold push_rune in H.
  destruct (nth_error modes (sm_mode l)) as [mode|]; [|discriminate].
  destruct (nthz mode (sm_state l)) as [i0|]; [|discriminate].
  destruct (nthz mode i0) as [count|]; [|discriminate].
  cbv zeta in H.
  destruct (nthz mode (i0 + 1)) as [flags|]; [|discriminate].
  destruct (nthz mode (i0 + 1 + 1)) as [goto_n|]; [|discriminate].
  match type of H with
  | match ?found with _ => _ end = _ => destruct found as [[t|]|]
  end; [| |discriminate].
  { injection H as <- <-. left. repeat split. }
  destruct (sm_consumed l) eqn:Ecn; cbn [negb] in H.
  - pose proof (run_actions_flags modes (S (Z.to_nat count)) mode (i0 + 1 + 2 + goto_n * 3)
                  (i0 + 1 + count) l) as Hf.
    destruct (run_actions modes (S (Z.to_nat count)) mode (i0 + 1 + 2 + goto_n * 3) (i0 + 1 + count) l)
      as [c1 l1|l1|]; [| |discriminate].
    + injection H as <- <-. destruct Hf as [->|[Hc [Hcn Hac]]].
      * right. right. right. split; [reflexivity|discriminate].
      * right. left. auto.
    + destruct Hf as [Hc _]. rewrite Hc, Ecn in H. cbn [negb andb] in H.
      injection H as <- <-. right. right. right. split; [reflexivity|discriminate].
  - rewrite Ecn in H. cbn [negb andb] in H.
    destruct (r =? -1) eqn:Er; destruct (sm_accum l) eqn:Eac; cbn [negb andb] in H;
      injection H as <- <-.
    + right. right. right. split; [reflexivity|]. intros _. right. reflexivity.
    + right. right. left. repeat split. lia.
    + right. right. right. split; [reflexivity|]. intros _. left. lia.
    + right. right. right. split; [reflexivity|]. intros _. left. lia.
Qed.

Definition seg_b (s : seg) : Z :=
  match s with SegTok _ b _ | SegDiscard b _ | SegError b _ | SegEOF b _ => b end.
Definition seg_e (s : seg) : Z :=
  match s with SegTok _ _ e | SegDiscard _ e | SegError _ e | SegEOF _ e => e end.

(* consecutive segments: the first begins at b, each begins where the previous
   one ends, the last ends at e *)
Fixpoint tiles (b : Z) (segs : list seg) (e : Z) : Prop :=
  match segs with
  | [] => b = e
  | s :: rest => seg_b s = b /\ tiles (seg_e s) rest e
  end.

Lemma tiles_app : forall l1 l2 b mid e, tiles b l1 mid -> tiles mid l2 e -> tiles b (l1 ++ l2) e.
Proof.
  induction l1 as [|s l1 IH]; intros l2 b mid e H1 H2; cbn [tiles app] in *.
  - subst. exact H2.
  - destruct H1 as [Hb H1]. split; [exact Hb|]. eapply IH; eassumption.
Qed.

Lemma tiles_snoc : forall pre s b e, tiles b (pre ++ [s]) e -> tiles b pre (seg_b s) /\ seg_e s = e.
Proof.
  induction pre as [|p pre IH]; intros s b e H; cbn [tiles app] in *.
  - destruct H as [H1 H2]. auto.
  - destruct H as [Hb H]. destruct (IH _ _ _ H). auto.
Qed.

Definition total_width (inp : list (Z * Z)) : Z := fold_right (fun p a => snd p + a) 0 inp.

Lemma consume_ro_sum : forall rest off,
  snd (consume_ro rest off) + total_width (fst (consume_ro rest off)) = off + total_width rest.
Proof.
  intros [|[r w] rest] off; cbn [consume_ro fst snd total_width fold_right]; [reflexivity|].
  fold (total_width rest). lia.
Qed.

Lemma skip_ro_sum : forall f rest off,
  snd (skip_ro f rest off) + total_width (fst (skip_ro f rest off)) = off + total_width rest.
Proof.
  induction f as [|f IH]; intros rest off; cbn [skip_ro]; [reflexivity|].
  destruct ((char_of rest =? 10) || (char_of rest =? -1)); [reflexivity|].
  rewrite IH. apply consume_ro_sum.
Qed.

Lemma error_ro_sum : forall rest off,
  snd (error_ro rest off) + total_width (fst (error_ro rest off)) = off + total_width rest.
Proof. intros rest off. unfold error_ro. rewrite consume_ro_sum. apply skip_ro_sum. Qed.

Definition noneof (s : seg) : Prop := is_eof_seg s = false.

Section Tiling.
Variable M : Type.
Variable push : M -> Z -> option (Z * M).
Variable tok : M -> Z.
Variable reset : M -> M.
Hypothesis eof_char : forall a r a', push a r = Some (lexEOF, a') -> r = -1.

Lemma read_token_tiles : forall fuel x start acc segs x',
  chars_ok (lx_rest x) ->
  read_token M push tok reset fuel x start acc = RTok M segs x' ->
  exists ds s,
    segs = rev acc ++ ds ++ [s] /\ Forall noneof ds /\
    tiles (match start with Some st => st | None => lx_off x end) (ds ++ [s]) (lx_off x') /\
    lx_off x' + total_width (lx_rest x') = lx_off x + total_width (lx_rest x) /\
    chars_ok (lx_rest x') /\
    (is_eof_seg s = true -> lx_rest x' = []).
Proof.
  induction fuel as [|f IH]; intros [a rest off] start acc segs x' Hok H; [discriminate|].
  cbn [lx_rest lx_off] in *. rewrite read_token_S in H. cbv zeta in H.
  set (st := match start with Some s => s | None => off end) in *.
  destruct (push a (char_of rest)) as [[c a']|] eqn:Ep; [|discriminate].
  destruct (code_cases c) as [->|[->|[->|[->|[->|(E0 & E1 & E2 & E3 & E4)]]]]];
    [| | | | |rewrite E0, E1, E2, E3, E4 in H];
    cbn [Z.eqb Pos.eqb lexConsume lexAccept lexDiscard lexTryAgain lexEOF] in H.
  - apply IH in H; [|apply consume_ro_forall, Hok]. cbn [lx_rest lx_off] in H.
    rewrite consume_ro_sum in H. exact H.
  - injection H as <- <-. exists [], (SegTok (tok a') st off). cbn [rev app tiles seg_b seg_e lx_rest lx_off].
    repeat split; try assumption; try constructor. discriminate.
  - apply IH in H; [|exact Hok]. cbn [lx_rest lx_off] in H.
    destruct H as (ds & s & -> & Hds & Ht & Hrest).
    exists (SegDiscard st off :: ds), s. cbn [rev]. rewrite <- app_assoc.
    split; [reflexivity|]. split; [constructor; [reflexivity|exact Hds]|].
    split; [split; [reflexivity|exact Ht]|exact Hrest].
  - exact (IH (Build_lexer M a' rest off) _ _ _ _ Hok H).
  - injection H as <- <-. exists [], (SegEOF st off). cbn [rev app tiles seg_b seg_e lx_rest lx_off].
    repeat split; try assumption; try constructor.
    intros _. apply chars_ok_eof; [exact Hok|exact (eof_char _ _ _ Ep)].
  - injection H as <- <-. eexists [], _. cbn [rev app tiles seg_b seg_e lx_rest lx_off].
    split; [reflexivity|]. split; [constructor|]. split; [split; reflexivity|].
    split; [apply error_ro_sum|]. split; [apply error_ro_forall, Hok|discriminate].
Qed.

Lemma noneof_existsb : forall ds, Forall noneof ds <-> existsb is_eof_seg ds = false.
Proof.
  induction ds as [|d ds IH]; cbn [existsb]; [split; [reflexivity|constructor]|].
  rewrite orb_false_iff, <- IH. split; [intros H; inversion H; auto|intros [H1 H2]; constructor; assumption].
Qed.

Lemma lex_all_tiles : forall fuel x acc segs b0,
  chars_ok (lx_rest x) ->
  lex_all M push tok reset fuel x acc = LDone segs ->
  tiles b0 acc (lx_off x) -> Forall noneof acc ->
  exists pre s,
    segs = pre ++ [s] /\ is_eof_seg s = true /\ Forall noneof pre /\
    tiles b0 segs (lx_off x + total_width (lx_rest x)).
Proof.
  induction fuel as [|f IH]; intros x acc segs b0 Hok H Hacc Hne; [discriminate|].
  cbn [lex_all] in H.
  destruct (read_token M push tok reset (S f) x None []) as [segs1 x'| |] eqn:Er; try discriminate.
  destruct (read_token_tiles _ _ _ _ _ _ Hok Er) as [ds [s [Hs [Hds [Ht [Hsum [Hok' Heof]]]]]]].
  cbn [rev app] in Hs. subst segs1.
  destruct (existsb is_eof_seg (ds ++ [s])) eqn:Ee.
  - injection H as <-.
    rewrite existsb_app, (proj1 (noneof_existsb ds) Hds) in Ee. cbn [existsb orb] in Ee.
    rewrite orb_false_r in Ee.
    exists (acc ++ ds), s.
    split; [rewrite app_assoc; reflexivity|]. split; [exact Ee|].
    split; [apply Forall_app; split; assumption|].
    eapply tiles_app; [exact Hacc|].
    rewrite (Heof Ee) in Hsum. cbn [total_width fold_right] in Hsum.
    rewrite <- Hsum. replace (lx_off x' + 0) with (lx_off x') by lia. exact Ht.
  - rewrite <- Hsum. apply (IH x' (acc ++ ds ++ [s]) segs b0 Hok' H).
    + eapply tiles_app; [exact Hacc|exact Ht].
    + apply Forall_app. split; [exact Hne|]. apply noneof_existsb, Ee.
Qed.

End Tiling.

Lemma push_rune_eof : forall modes l r l',
  push_rune modes l r = Some (lexEOF, l') -> r = -1.
Proof.
  intros modes l r l' H.
  destruct (push_rune_class _ _ _ _ _ H) as [(Hc & _)|[([Hc|[Hc|Hc]] & _)|[(_ & Hr & _)|(Hc & _)]]];
    (exact Hr || discriminate Hc).
Qed.

Theorem lex_tiling : forall modes fuel inp segs,
  (forall r w, In (r, w) inp -> 0 <= r) ->
  lex_tables modes fuel inp = LDone segs ->
  exists pre b,
    segs = pre ++ [SegEOF b (total_width inp)] /\
    Forall noneof pre /\
    tiles 0 segs (total_width inp).
Proof.
  intros modes fuel inp segs Hinp H. unfold lex_tables, lex_input in H.
  pose proof (Forall_fst (fun r => 0 <= r) inp Hinp) as Hok.
  destruct (lex_all_tiles sm (push_rune modes) sm_token sm_reset (push_rune_eof modes)
              fuel (Build_lexer sm sm_init inp 0) [] segs 0 Hok H eq_refl (Forall_nil _)) as [pre [s [Hs [He [Hpre Ht]]]]].
  cbn [lx_off lx_rest] in Ht. replace (0 + total_width inp) with (total_width inp) in Ht by lia.
  pose proof Ht as Hlast. rewrite Hs in Hlast. apply tiles_snoc in Hlast as [_ Hlast].
  destruct s as [ty b e|b e|b e|b e]; try discriminate He. cbn [seg_e] in Hlast. subst e.
  exists pre, b. split; [exact Hs|]. split; [exact Hpre|exact Ht].
Qed.
Print Assumptions lex_tiling.

Definition eof_empty (segs : list seg) : Prop := forall b e, In (SegEOF b e) segs -> b = e.

Lemma eof_empty_snoc : forall s acc,
  (forall b e, s = SegEOF b e -> b = e) -> eof_empty acc -> eof_empty (rev (s :: acc)).
Proof.
  intros s acc Hs Hacc b e Hin. cbn [rev] in Hin. apply in_app_or in Hin.
  destruct Hin as [Hin|[Hin|[]]]; [apply Hacc, in_rev, Hin|apply Hs, Hin].
Qed.

Lemma eof_empty_app : forall s1 s2, eof_empty s1 -> eof_empty s2 -> eof_empty (s1 ++ s2).
Proof. intros s1 s2 H1 H2 b e Hin. apply in_app_or in Hin. destruct Hin; [apply H1|apply H2]; assumption. Qed.

Section NoLossAny.
Variable modes : list (list Z).
Notation rt := (read_token sm (push_rune modes) sm_token sm_reset).

(* a token that has begun has consumed something or has accumulated text
   pending, and in either state PushRune does not answer EOF *)
Lemma read_token_no_loss_any : forall fuel x start acc segs x',
  (forall st, start = Some st -> sm_consumed (lx_sm x) = true \/ sm_accum (lx_sm x) = true) ->
  eof_empty acc ->
  rt fuel x start acc = RTok sm segs x' ->
  eof_empty segs.
Proof.
  induction fuel as [|f IH]; intros [l rest off] start acc segs x' Hstart Hacc H; [discriminate|].
  cbn [lx_sm] in Hstart. rewrite read_token_S in H. cbv zeta in H.
  destruct (push_rune modes l (char_of rest)) as [[c l']|] eqn:Ep; [|discriminate].
  destruct (push_rune_class _ _ _ _ _ Ep)
    as [(-> & Hs' & _)|[(Hc & _ & _ & Ha')|[(-> & _ & Hcn & Hac)|(-> & _)]]].
  - refine (IH _ _ _ _ _ _ Hacc H). intros st _. left. exact Hs'.
  - destruct Hc as [-> | [-> | ->]]; cbn [Z.eqb Pos.eqb lexConsume lexAccept lexDiscard lexTryAgain] in H, Ha'.
    + injection H as <- _. apply eof_empty_snoc; [discriminate|exact Hacc].
    + refine (IH _ _ _ _ _ _ _ H); [discriminate|].
      intros b e [Hin|Hin]; [discriminate Hin|apply Hacc, Hin].
    + refine (IH _ _ _ _ _ _ Hacc H). intros st _. right. exact Ha'.
  - injection H as <- _.
    destruct start as [st|]; [destruct (Hstart st eq_refl) as [Hx|Hx]; congruence|].
    apply eof_empty_snoc; [|exact Hacc]. intros b e E. injection E as <- <-. reflexivity.
  - injection H as <- _. apply eof_empty_snoc; [discriminate|exact Hacc].
Qed.

(* the conjunct True stands where lex_all_lift expects an invariant of the reader *)
Lemma read_token_eof_empty : forall fuel x,
  match rt fuel x None [] with
  | RTok _ segs _ => eof_empty segs /\ True
  | _ => True
  end.
Proof.
  intros fuel x. destruct (rt fuel x None []) as [segs x'| |] eqn:Er; try exact I.
  split; [|exact I]. apply (read_token_no_loss_any fuel x None [] segs x'); [discriminate|intros b e []|exact Er].
Qed.

Theorem lex_no_loss_any : forall fuel inp segs,
  lex_tables modes fuel inp = LDone segs ->
  forall b e, In (SegEOF b e) segs -> b = e.
Proof.
  intros fuel inp segs H. unfold lex_tables, lex_input in H.
  pose proof (lex_all_lift sm (push_rune modes) sm_token sm_reset (fun _ => True) eof_empty True
                eof_empty_app (fun fuel x _ => read_token_eof_empty fuel x)
                fuel (Build_lexer sm sm_init inp 0) [] I (fun b e (Hin : In _ []) => match Hin with end)) as Hl.
  rewrite H in Hl. exact Hl.
Qed.

Theorem lex_exact_tiling_any : forall fuel inp segs,
  (forall r w, In (r, w) inp -> 0 <= r) ->
  lex_tables modes fuel inp = LDone segs ->
  exists pre,
    segs = pre ++ [SegEOF (total_width inp) (total_width inp)] /\
    Forall noneof pre /\
    tiles 0 pre (total_width inp).
Proof.
  intros fuel inp segs Hinp H.
  destruct (lex_tiling modes fuel inp segs Hinp H) as [pre [b [Hs [Hpre Ht]]]].
  assert (Hb : b = total_width inp).
  { apply (lex_no_loss_any fuel inp segs H). rewrite Hs. apply in_or_app. right. left. reflexivity. }
  subst b. exists pre. split; [exact Hs|]. split; [exact Hpre|].
  rewrite Hs in Ht. apply tiles_snoc in Ht. apply Ht.
Qed.

End NoLossAny.
Print Assumptions lex_no_loss_any.
Print Assumptions lex_exact_tiling_any.

(* phi drops with every PushRune that does not end the call: a consumed
   character takes 3 off the length term and adds at most 2 for the consumed
   flag; accept, discard and try-again clear that flag (2) and set at most the
   accum flag (1).  An error at a token boundary skips a character or clears
   the accum flag. *)
Definition phi (x : lexer sm) : nat :=
  (3 * length (lx_rest x) + (if sm_consumed (lx_sm x) then 2 else 0)
   + (if sm_accum (lx_sm x) then 1 else 0))%nat.

Lemma phi_consume : forall l l' r w rest off off',
  sm_consumed l' = true -> sm_accum l' = sm_accum l ->
  (phi (Build_lexer sm l' rest off') < phi (Build_lexer sm l ((r, w) :: rest) off))%nat.
Proof.
  intros l l' r w rest off off' Hs' Ha'. unfold phi; cbn [lx_sm lx_rest length].
  rewrite Hs', Ha'. destruct (sm_consumed l); lia.
Qed.

Lemma phi_terminal : forall l l' rest off,
  sm_consumed l' = false -> sm_consumed l = true ->
  (phi (Build_lexer sm l' rest off) < phi (Build_lexer sm l rest off))%nat.
Proof.
  intros l l' rest off Hs' Hs. unfold phi; cbn [lx_sm lx_rest]. rewrite Hs', Hs.
  destruct (sm_accum l'); destruct (sm_accum l); lia.
Qed.

Lemma phi_error : forall l l' rest off,
  (sm_consumed l = false -> char_of rest <> -1 \/ sm_accum l = true) ->
  (phi (Build_lexer sm (sm_reset l') (fst (error_ro rest off)) (snd (error_ro rest off)))
   < phi (Build_lexer sm l rest off))%nat.
Proof.
  intros l l' rest off Hr. unfold phi; cbn [lx_sm lx_rest sm_reset sm_consumed sm_accum].
  pose proof (error_ro_len rest off) as [Hle Hlt].
  destruct (sm_consumed l); [lia|].
  destruct (Hr eq_refl) as [Hr'|Hacc]; [|rewrite Hacc; lia].
  assert (Hne : rest <> []) by (intros ->; apply Hr'; reflexivity).
  specialize (Hlt Hne). lia.
Qed.

Section Total.
Variable modes : list (list Z).
Hypothesis Hwf : modes_wf modes = true.

Notation rt := (read_token sm (push_rune modes) sm_token sm_reset).
Notation la := (lex_all sm (push_rune modes) sm_token sm_reset).

(* A call runs out of fuel only if it had no more than n, and otherwise ends
   at EOF or below n. *)
Definition rt_ok (fuel n : nat) (res : rres sm) : Prop :=
  match res with
  | RCrash _ => False
  | RFuel _ => (fuel <= n)%nat
  | RTok _ segs x' =>
    sm_inv modes (lx_sm x') /\ (existsb is_eof_seg segs = true \/ (phi x' < n)%nat)
  end.

Lemma rt_ok_step : forall f n n' res, rt_ok f n res -> (n < n')%nat -> rt_ok (S f) n' res.
Proof.
  intros f n n' [segs x'| |] H Hn; cbn [rt_ok] in *; [|exact H|lia].
  destruct H as [Hinv [He|Hlt]]; split; auto. right. lia.
Qed.

Lemma read_token_run : forall fuel x start acc,
  sm_inv modes (lx_sm x) -> rt_ok fuel (phi x) (rt fuel x start acc).
Proof.
  induction fuel as [|f IH]; intros [l rest off] start acc Hinv; [apply Nat.le_0_l|].
  cbn [lx_sm] in Hinv. rewrite read_token_S. cbv zeta.
  destruct (push_rune_inv modes l (char_of rest) Hwf Hinv) as (c & l' & Ep & Hw & Hfull & Hr0).
  rewrite Ep.
  destruct (push_rune_class _ _ _ _ _ Ep)
    as [(-> & Hs' & Ha')|[(Hc & Hs' & Hs & _)|[(-> & _)|(-> & Hr)]]].
  - cbn [Z.eqb lexConsume].
    destruct rest as [|[r w] rest]; [exfalso; apply (Hr0 eq_refl); reflexivity|].
    cbn [consume_ro fst snd].
    eapply rt_ok_step; [apply IH, Hfull; discriminate|].
    exact (phi_consume l l' r w rest off (off + w) Hs' Ha').
  - assert (Hinv' : sm_inv modes l') by (apply Hfull; destruct Hc as [-> | [-> | ->]]; discriminate).
    pose proof (phi_terminal l l' rest off Hs' Hs) as Hdec.
    destruct Hc as [-> | [-> | ->]]; cbn [Z.eqb Pos.eqb lexConsume lexAccept lexDiscard lexTryAgain].
    + split; [exact Hinv'|]. right. exact Hdec.
    + eapply rt_ok_step; [apply IH, Hinv'|exact Hdec].
    + eapply rt_ok_step; [apply IH, Hinv'|exact Hdec].
  - cbn [Z.eqb lexEOF lexConsume lexAccept lexDiscard lexTryAgain].
    split; [apply Hfull; discriminate|]. left. rewrite existsb_rev_cons. reflexivity.
  - cbn [Z.eqb lexError lexEOF lexConsume lexAccept lexDiscard lexTryAgain].
    split; [apply sm_inv_reset; assumption|].
    right. exact (phi_error l l' rest off Hr).
Qed.

Lemma lex_all_total : forall fuel x acc,
  sm_inv modes (lx_sm x) -> (phi x < fuel)%nat ->
  exists segs, la fuel x acc = LDone segs.
Proof.
  induction fuel as [|f IH]; intros x acc Hinv Hphi; [lia|].
  cbn [lex_all]. pose proof (read_token_run (S f) x None [] Hinv) as Hrt.
  destruct (rt (S f) x None []) as [segs x'| |]; cbn [rt_ok] in Hrt; [|contradiction|lia].
  destruct Hrt as [Hinv' Hd]. destruct (existsb is_eof_seg segs) eqn:E.
  - eexists. reflexivity.
  - destruct Hd as [Hd|Hd]; [discriminate|]. apply IH; [exact Hinv'|lia].
Qed.

Theorem lex_total : forall inp,
  (forall r w, In (r, w) inp -> 0 <= r) ->
  exists segs, lex_tables modes (3 * length inp + 1) inp = LDone segs.
Proof.
  intros inp _. unfold lex_tables, lex_input. apply lex_all_total; cbn [lx_sm].
  - apply sm_inv_init. exact Hwf.
  - unfold phi; cbn [lx_sm lx_rest sm_init sm_consumed sm_accum]. lia.
Qed.

Theorem lex_no_crash : forall fuel inp, lex_tables modes fuel inp <> LCrash.
Proof.
  intros fuel inp H. unfold lex_tables, lex_input in H.
  assert (Hrt : forall fuel x, sm_inv modes (lx_sm x) ->
            match rt fuel x None [] with
            | RTok _ _ x' => True /\ sm_inv modes (lx_sm x')
            | RCrash _ => False
            | RFuel _ => True
            end).
  { intros fuel' x Hx. pose proof (read_token_run fuel' x None [] Hx) as Hrt.
    destruct (rt fuel' x None []); [split; [exact I|apply Hrt]|exact Hrt|exact I]. }
  pose proof (lex_all_lift sm (push_rune modes) sm_token sm_reset
                (fun x => sm_inv modes (lx_sm x)) (fun _ => True) False (fun _ _ _ _ => I) Hrt
                fuel (Build_lexer sm sm_init inp 0) [] (sm_inv_init modes Hwf) I) as Hl.
  rewrite H in Hl. exact Hl.
Qed.

Theorem lex_no_loss : forall fuel inp segs,
  lex_tables modes fuel inp = LDone segs ->
  forall b e, In (SegEOF b e) segs -> b = e.
Proof using Hwf. exact (lex_no_loss_any modes). Qed.

Theorem lex_exact_tiling : forall fuel inp segs,
  (forall r w, In (r, w) inp -> 0 <= r) ->
  lex_tables modes fuel inp = LDone segs ->
  exists pre,
    segs = pre ++ [SegEOF (total_width inp) (total_width inp)] /\
    Forall noneof pre /\
    tiles 0 pre (total_width inp).
Proof using Hwf. exact (lex_exact_tiling_any modes). Qed.

End Total.

Corollary lex_total_fuel : forall modes,
  modes_wf modes = true ->
  forall inp, (forall r w, In (r, w) inp -> 0 <= r <= 1114111 /\ 0 < w) ->
  exists fuel segs, lex_tables modes fuel inp = LDone segs.
Proof.
  intros modes Hwf inp Hinp.
  destruct (lex_total modes Hwf inp) as [segs H].
  - intros r w Hin. destruct (Hinp r w Hin) as [[H0 _] _]. exact H0.
  - exists (3 * length inp + 1)%nat, segs. exact H.
Qed.
Print Assumptions lex_total.
Print Assumptions lex_total_fuel.
Print Assumptions lex_no_crash.
Print Assumptions lex_no_loss.
Print Assumptions lex_exact_tiling.
