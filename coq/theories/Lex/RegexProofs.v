(* The derivative reference automaton (RegexRef.v): nullable, deriv and
   is_empty against [matches]; the transition list of a view, read at c, is
   the derivative by c (view_lookup). *)
From Coq Require Import List ZArith Lia Bool.
From Lox Require Import Lex.LexAuto Lex.RegexRef.
Import ListNotations.
Local Open Scope Z_scope.

(* the rules  a+  and  'ab' *)

Definition ex_rules : list rule :=
  [ {| r_re := re_plus (RCls [(97, 97)]); r_acts := [(3, 0)]; r_ng := false |};
    {| r_re := lit [97; 98]; r_acts := [(3, 1)]; r_ng := false |} ].

Definition ex_s0 := re_start [ex_rules] 0.
Definition ex_s1 := map (deriv 97) ex_s0.      (* after "a" *)
Definition ex_s2 := map (deriv 98) ex_s1.      (* after "ab" *)

Example ex_view0 :
  re_view ex_rules ex_s0 =
  {| v_flag := false;
     v_trans := [(97, 97, [RStar (RCls [(97, 97)]); RCls [(98, 98)]])];
     v_acts := [] |}.
Proof. vm_compute. reflexivity. Qed.

Example ex_view1 :
  re_view ex_rules ex_s1 =
  {| v_flag := false;
     v_trans := [(97, 97, [RStar (RCls [(97, 97)]); REmpty]); (98, 98, [REmpty; REps])];
     v_acts := [(3, 0)] |}.
Proof. vm_compute. reflexivity. Qed.

Example ex_view2 :
  re_view ex_rules ex_s2 = {| v_flag := false; v_trans := []; v_acts := [(3, 1)] |}.
Proof. vm_compute. reflexivity. Qed.

Lemma lex_cmp_eq : forall c1 c2 : comparison,
  match c1 with Eq => c2 | Lt => Lt | Gt => Gt end = Eq <-> c1 = Eq /\ c2 = Eq.
Proof. intros [| |] c2; intuition discriminate. Qed.

Lemma rs_cmp_eq : forall a b, rs_cmp a b = Eq <-> a = b.
Proof.
  induction a as [|[l1 h1] a IH]; intros [|[l2 h2] b]; cbn [rs_cmp fst snd];
    try (split; intros H; [discriminate H|discriminate H]); [tauto|].
  rewrite !lex_cmp_eq, !Z.compare_eq_iff, IH. intuition congruence.
Qed.

Lemma re_cmp_eq : forall a b, re_cmp a b = Eq <-> a = b.
Proof.
  induction a as [| |rs|a1 IH1 a2 IH2|a1 IH1 a2 IH2|a1 IH1]; intros b; destruct b as [| |rs'|b1 b2|b1 b2|b1];
    cbn [re_cmp re_tag Nat.compare];
    try (split; intros H; [discriminate H|discriminate H]); try tauto.
  - rewrite rs_cmp_eq. intuition congruence.
  - rewrite lex_cmp_eq, IH1, IH2. intuition congruence.
  - rewrite lex_cmp_eq, IH1, IH2. intuition congruence.
  - rewrite IH1. intuition congruence.
Qed.

Theorem re_eqb_eq : forall a b, re_eqb a b = true <-> a = b.
Proof.
  intros a b. unfold re_eqb. rewrite <- re_cmp_eq.
  destruct (re_cmp a b); split; intros H; try reflexivity; discriminate H.
Qed.
Print Assumptions re_eqb_eq.

Theorem st_eqb_eq : forall a b, st_eqb a b = true <-> a = b.
Proof.
  induction a as [|x a IH]; intros [|y b]; cbn [st_eqb];
    try (split; intros H; [discriminate H|discriminate H]); [tauto|].
  rewrite andb_true_iff, re_eqb_eq, IH.
  split; [intros [-> ->]; reflexivity|intros H; injection H as -> ->; split; reflexivity].
Qed.
Print Assumptions st_eqb_eq.

Inductive matches : re -> list Z -> Prop :=
| MEps : matches REps []
| MCls : forall rs c lo hi, In (lo, hi) rs -> lo <= c <= hi -> matches (RCls rs) [c]
| MCat : forall a b u v, matches a u -> matches b v -> matches (RCat a b) (u ++ v)
| MAltL : forall a b u, matches a u -> matches (RAlt a b) u
| MAltR : forall a b u, matches b u -> matches (RAlt a b) u
| MStar0 : forall a, matches (RStar a) []
| MStarS : forall a u v, matches a u -> matches (RStar a) v -> matches (RStar a) (u ++ v).

Lemma m_empty : forall w, ~ matches REmpty w.
Proof. intros w H. inversion H. Qed.

Lemma m_eps : forall w, matches REps w <-> w = [].
Proof. intros w. split; intros H; [inversion H; reflexivity|subst; constructor]. Qed.

Lemma in_cls_spec : forall c rs, in_cls c rs = true <-> exists lo hi, In (lo, hi) rs /\ lo <= c <= hi.
Proof.
  intros c rs. unfold in_cls. rewrite existsb_exists. split.
  - intros [[lo hi] [Hin H1]]. unfold in1 in H1. cbn [fst snd] in H1. exists lo, hi. split; [exact Hin|lia].
  - intros [lo [hi [Hin H1]]]. exists (lo, hi). split; [exact Hin|]. unfold in1. cbn [fst snd]. lia.
Qed.

Lemma m_cls : forall rs w, matches (RCls rs) w <-> exists c, w = [c] /\ in_cls c rs = true.
Proof.
  intros rs w. split.
  - intros H. inversion H as [|rs' c lo hi Hin Hr| | | | |]. subst. exists c. split; [reflexivity|].
    apply in_cls_spec. exists lo, hi. split; assumption.
  - intros [c [-> Hc]]. apply in_cls_spec in Hc. destruct Hc as [lo [hi [Hin Hr]]].
    apply (MCls rs c lo hi Hin Hr).
Qed.

Lemma m_cat : forall a b w, matches (RCat a b) w <-> exists u v, w = u ++ v /\ matches a u /\ matches b v.
Proof.
  intros a b w. split.
  - intros H. inversion H as [| |a' b' u v Ha Hb| | | |]. subst. exists u, v. auto.
  - intros [u [v [-> [Ha Hb]]]]. constructor; assumption.
Qed.

Lemma m_alt : forall a b w, matches (RAlt a b) w <-> matches a w \/ matches b w.
Proof.
  intros a b w. split.
  - intros H. inversion H; subst; auto.
  - intros [H|H]; [apply MAltL|apply MAltR]; exact H.
Qed.

Lemma m_star_cons : forall a c w,
  matches (RStar a) (c :: w) <-> exists u v, w = u ++ v /\ matches a (c :: u) /\ matches (RStar a) v.
Proof.
  intros a c w. split.
  - intros H. remember (RStar a) as r eqn:Er. remember (c :: w) as cw eqn:Ew.
    revert a c w Er Ew.
    induction H as [| | | | | |a' u v Hu IHu Hv IHv]; intros a0 c0 w0 Er Ew; try discriminate Er.
    + discriminate Ew.
    + injection Er as ->. destruct u as [|c' u'].
      * cbn [app] in Ew. apply (IHv a0 c0 w0 eq_refl Ew).
      * cbn [app] in Ew. injection Ew as -> <-. exists u', v. auto.
  - intros [u [v [-> [Ha Hs]]]]. apply (MStarS a (c :: u) v Ha Hs).
Qed.

Theorem nullable_correct : forall r, nullable r = true <-> matches r [].
Proof.
  induction r as [| |rs|a IHa b IHb|a IHa b IHb|a IHa]; cbn [nullable].
  - split; [discriminate|]. intros H. inversion H.
  - split; [constructor|reflexivity].
  - split; [discriminate|]. intros H. inversion H.
  - rewrite andb_true_iff, IHa, IHb, m_cat. split.
    + intros [Ha Hb]. exists [], []. auto.
    + intros [u [v [Huv [Ha Hb]]]]. symmetry in Huv. apply app_eq_nil in Huv. destruct Huv as [-> ->]. auto.
  - rewrite orb_true_iff, IHa, IHb, m_alt. tauto.
  - split; [constructor|reflexivity].
Qed.
Print Assumptions nullable_correct.

Lemma m_mk_cat : forall a b w, matches (mk_cat a b) w <-> matches (RCat a b) w.
Proof.
  intros a b w.
  assert (Hel : forall x, matches (RCat REmpty x) w <-> matches REmpty w).
  { intros x. rewrite m_cat. split; [intros (u & v & _ & H & _)|intros H]; destruct (m_empty _ H). }
  assert (Her : forall x, matches (RCat x REmpty) w <-> matches REmpty w).
  { intros x. rewrite m_cat. split; [intros (u & v & _ & _ & H)|intros H]; destruct (m_empty _ H). }
  assert (Hul : forall x, matches (RCat REps x) w <-> matches x w).
  { intros x. rewrite m_cat. split.
    - intros (u & v & -> & ->%m_eps & Hv). exact Hv.
    - intros H. exists [], w. auto using MEps. }
  assert (Hur : forall x, matches (RCat x REps) w <-> matches x w).
  { intros x. rewrite m_cat. split.
    - intros (u & v & -> & Hu & ->%m_eps). rewrite app_nil_r. exact Hu.
    - intros H. exists w, []. rewrite app_nil_r. auto using MEps. }
  destruct a; destruct b; cbn [mk_cat]; rewrite ?Hel, ?Her, ?Hul, ?Hur; reflexivity.
Qed.

Lemma m_alt_ins : forall a b w, matches (alt_ins a b) w <-> matches a w \/ matches b w.
Proof.
  intros a b w. revert a.
  induction b as [| |rs|b1 IH1 b2 IH2|b1 IH1 b2 IH2|b1 IH1]; intros a; cbn [alt_ins];
    try (destruct (re_cmp a _) eqn:E; rewrite ?m_alt; [apply re_cmp_eq in E; subst a|..]; tauto).
  - pose proof (m_empty w). tauto.
  - destruct (re_cmp a b1) eqn:E; rewrite !m_alt, ?IH2; [|tauto|tauto].
    apply re_cmp_eq in E. subst b1. tauto.
Qed.

Lemma m_mk_alt : forall a b w, matches (mk_alt a b) w <-> matches (RAlt a b) w.
Proof.
  intros a b w. rewrite m_alt. revert b.
  induction a as [| |rs|a1 IH1 a2 IH2|a1 IH1 a2 IH2|a1 IH1]; intros b; cbn [mk_alt];
    try apply m_alt_ins.
  - pose proof (m_empty w). tauto.
  - rewrite IH1, IH2, m_alt. tauto.
Qed.

Lemma m_cat_cons : forall a b c w,
  matches (RCat a b) (c :: w) <->
  (matches a [] /\ matches b (c :: w)) \/
  exists u v, w = u ++ v /\ matches a (c :: u) /\ matches b v.
Proof.
  intros a b c w. rewrite m_cat. split.
  - intros ([|c' u] & v & Huv & Hu & Hv); cbn [app] in Huv.
    + subst v. left. auto.
    + injection Huv as <- ->. right. exists u, v. auto.
  - intros [[Ha Hb]|(u & v & -> & Hu & Hv)]; [exists [], (c :: w)|exists (c :: u), v]; auto.
Qed.

Lemma m_deriv_cat : forall a b c w,
  (forall u, matches (deriv c a) u <-> matches a (c :: u)) ->
  (matches (mk_cat (deriv c a) b) w <->
   exists u v, w = u ++ v /\ matches a (c :: u) /\ matches b v).
Proof.
  intros a b c w IH. rewrite m_mk_cat, m_cat.
  split; intros (u & v & Hw & Hu & Hv); exists u, v;
    (split; [exact Hw|split; [apply IH; exact Hu|exact Hv]]).
Qed.

Theorem deriv_correct : forall r c w, matches (deriv c r) w <-> matches r (c :: w).
Proof.
  induction r as [| |rs|a IHa b IHb|a IHa b IHb|a IHa]; intros c w; cbn [deriv].
  - split; intros H; inversion H.
  - split; intros H; inversion H.
  - rewrite m_cls. destruct (in_cls c rs) eqn:E.
    + rewrite m_eps. split; [intros ->; exists c; auto|intros (c' & [= _ ->] & _); reflexivity].
    + split; [intros H; destruct (m_empty _ H)|intros (c' & [= <- _] & H2); congruence].
  - rewrite m_cat_cons, <- nullable_correct, <- (m_deriv_cat a b c w (IHa c)).
    destruct (nullable a); [rewrite m_mk_alt, m_alt, IHb|]; intuition congruence.
  - rewrite m_mk_alt, !m_alt, IHa, IHb. tauto.
  - rewrite m_star_cons. apply m_deriv_cat. exact (IHa c).
Qed.
Print Assumptions deriv_correct.

Definition wf_range (p : Z * Z) : Prop := 0 <= fst p <= snd p /\ snd p <= 1114111.

(* well-formed rule body: REmpty does not occur, every class is non-empty and
   made of ranges 0 <= lo <= hi <= 1114111 *)
Fixpoint wf_re (r : re) : Prop :=
  match r with
  | REmpty => False
  | REps => True
  | RCls rs => rs <> [] /\ Forall wf_range rs
  | RCat a b => wf_re a /\ wf_re b
  | RAlt a b => wf_re a /\ wf_re b
  | RStar a => wf_re a
  end.

(* what the smart constructors produce: REmpty only at the root *)
Definition clean (r : re) : Prop := r = REmpty \/ wf_re r.

Lemma wf_reb_ok : forall r, wf_reb r = true <-> wf_re r.
Proof.
  induction r as [| |rs|a IHa b IHb|a IHa b IHb|a IHa]; cbn [wf_reb wf_re].
  - split; [discriminate|intros []].
  - tauto.
  - rewrite andb_true_iff, forallb_forall, Forall_forall.
    assert (Hn : match rs with [] => false | _ :: _ => true end = true <-> rs <> []).
    { destruct rs; intuition congruence. }
    rewrite Hn. unfold wf_range.
    split; intros [H1 H2]; (split; [exact H1|]); intros p Hp; specialize (H2 p Hp); lia.
  - rewrite andb_true_iff, IHa, IHb. tauto.
  - rewrite andb_true_iff, IHa, IHb. tauto.
  - exact IHa.
Qed.

Lemma wf_inhabited : forall r, wf_re r -> exists w, matches r w.
Proof.
  induction r as [| |rs|a IHa b IHb|a IHa b IHb|a IHa]; cbn [wf_re]; intros H.
  - destruct H.
  - exists []. constructor.
  - destruct H as [Hne Hall]. destruct rs as [|[lo hi] rs]; [congruence|].
    apply Forall_inv in Hall. unfold wf_range in Hall. cbn [fst snd] in Hall.
    exists [lo]. apply (MCls _ lo lo hi); [left; reflexivity|lia].
  - destruct H as [[u Hu]%IHa [v Hv]%IHb]. exists (u ++ v). constructor; assumption.
  - destruct H as [[u Hu]%IHa _]. exists u. apply MAltL. exact Hu.
  - exists []. constructor.
Qed.

Theorem is_empty_correct : forall r, clean r -> (is_empty r = true <-> forall w, ~ matches r w).
Proof.
  intros r [->|Hwf].
  - cbn [is_empty]. split; [intros _; apply m_empty|reflexivity].
  - destruct (wf_inhabited r Hwf) as [w Hw]. split.
    + intros H. destruct r; try discriminate H. destruct Hwf.
    + intros H. exfalso. apply (H w Hw).
Qed.
Print Assumptions is_empty_correct.

Lemma is_empty_false : forall r, clean r -> (is_empty r = false <-> exists w, matches r w).
Proof.
  intros r Hc. split.
  - intros H. destruct Hc as [->|Hwf]; [discriminate H|]. apply wf_inhabited. exact Hwf.
  - intros [w Hw]. destruct (is_empty r) eqn:E; [|reflexivity].
    exfalso. apply (proj1 (is_empty_correct r Hc) E w Hw).
Qed.

Lemma clean_wf : forall r, wf_re r -> clean r.
Proof. intros r H. right. exact H. Qed.

Lemma mk_cat_clean : forall a b, clean a -> clean b -> clean (mk_cat a b).
Proof.
  intros a b [->|Ha]; [left; reflexivity|]. intros [->|Hb].
  - left. destruct a; reflexivity.
  - destruct a; destruct b; cbn [mk_cat]; cbn [wf_re] in Ha, Hb;
      first [left; reflexivity | right; cbn [wf_re]; tauto].
Qed.

Lemma alt_ins_wf : forall a b, wf_re a -> clean b -> wf_re (alt_ins a b).
Proof.
  intros a b Ha. induction b as [| |rs|b1 IH1 b2 IH2|b1 IH1 b2 IH2|b1 IH1]; intros [Hb|Hb];
    try discriminate Hb; cbn [alt_ins]; try exact Ha; try (destruct (re_cmp a _); cbn [wf_re] in *; tauto).
  cbn [wf_re] in Hb. destruct Hb as [Hb1 Hb2].
  destruct (re_cmp a b1); cbn [wf_re]; try tauto.
  split; [exact Hb1|]. apply IH2. right. exact Hb2.
Qed.

Lemma mk_alt_clean : forall a b, clean a -> clean b -> clean (mk_alt a b).
Proof.
  induction a as [| |rs|a1 IH1 a2 IH2|a1 IH1 a2 IH2|a1 IH1]; intros b Ha Hb; cbn [mk_alt];
    try exact Hb;
    destruct Ha as [Ha|Ha]; try discriminate Ha;
    try (right; apply alt_ins_wf; [exact Ha|exact Hb]).
  cbn [wf_re] in Ha. destruct Ha as [Ha1 Ha2].
  apply IH1; [right; exact Ha1|]. apply IH2; [right; exact Ha2|exact Hb].
Qed.

Lemma deriv_clean : forall r c, clean r -> clean (deriv c r).
Proof.
  intros r c [->|Hwf]; [left; reflexivity|]. revert Hwf.
  induction r as [| |rs|a IHa b IHb|a IHa b IHb|a IHa]; cbn [wf_re deriv]; intros H.
  - destruct H.
  - left. reflexivity.
  - destruct (in_cls c rs); [right; exact I|left; reflexivity].
  - destruct H as [Ha Hb]. destruct (nullable a); auto using clean_wf, mk_cat_clean, mk_alt_clean.
  - destruct H as [Ha Hb]. auto using mk_alt_clean.
  - auto using clean_wf, mk_cat_clean.
Qed.
Print Assumptions deriv_clean.

Lemma in_cls_same : forall rs c b,
  Forall (fun p => in1 p c = in1 p b) rs -> in_cls c rs = in_cls b rs.
Proof.
  intros rs c b H. unfold in_cls. induction H as [|p rs Hp _ IH]; [reflexivity|].
  cbn [existsb]. rewrite Hp, IH. reflexivity.
Qed.

Lemma deriv_same : forall r c b,
  Forall (fun p => in1 p c = in1 p b) (heads r) -> deriv c r = deriv b r.
Proof.
  induction r as [| |rs|a IHa b0 IHb|a IHa b0 IHb|a IHa]; intros c b H; cbn [deriv heads] in *.
  - reflexivity.
  - reflexivity.
  - rewrite (in_cls_same rs c b H). reflexivity.
  - destruct (nullable a) eqn:En.
    + apply Forall_app in H as [Ha Hb]. rewrite (IHa c b Ha), (IHb c b Hb). reflexivity.
    + rewrite (IHa c b H). reflexivity.
  - apply Forall_app in H as [Ha Hb]. rewrite (IHa c b Ha), (IHb c b Hb). reflexivity.
  - rewrite (IHa c b H). reflexivity.
Qed.

Fixpoint ssorted (l : list Z) : Prop :=
  match l with
  | [] => True
  | x :: l' => (forall y, In y l' -> x < y) /\ ssorted l'
  end.

Lemma ins_pt_in : forall x l y, In y (ins_pt x l) <-> y = x \/ In y l.
Proof.
  intros x l y. induction l as [|z l IH]; cbn [ins_pt].
  - cbn [In]. intuition auto.
  - destruct (x <? z) eqn:E1; [cbn [In]; intuition auto|].
    destruct (x =? z) eqn:E2; cbn [In].
    + assert (x = z) by lia. subst z. intuition auto.
    + rewrite IH. intuition auto.
Qed.

Lemma ins_pt_sorted : forall x l, ssorted l -> ssorted (ins_pt x l).
Proof.
  intros x l. induction l as [|z l IH]; intros Hs; cbn [ins_pt].
  - split; [intros y []|exact I].
  - destruct Hs as [Hz Hs].
    destruct (x <? z) eqn:E1; [|destruct (x =? z) eqn:E2]; cbn [ssorted].
    + split; [|split; assumption]. intros y [<-|Hy]; [lia|]. specialize (Hz y Hy). lia.
    + split; assumption.
    + split; [|apply IH; exact Hs]. intros y [->|Hy]%ins_pt_in; [lia|apply Hz; exact Hy].
Qed.

Lemma add_pt_in : forall p l y, In y (add_pt p l) <-> (y = p /\ in_range p = true) \/ In y l.
Proof.
  intros p l y. unfold add_pt. destruct (in_range p) eqn:E.
  - rewrite ins_pt_in. split; intros [H|H]; auto. destruct H as [H _]. auto.
  - split; [auto|]. intros [[_ H]|H]; [discriminate H|exact H].
Qed.

Lemma add_pt_sorted : forall p l, ssorted l -> ssorted (add_pt p l).
Proof. intros p l H. unfold add_pt. destruct (in_range p); [apply ins_pt_sorted|]; exact H. Qed.

(* st_points over any list of head classes (st_points_eq).  Atoms are the
   stretches between consecutive points, so a class (lo, hi) contributes lo and
   hi + 1, and 0 starts the first atom. *)
Definition pts_of (hs : list (Z * Z)) : list Z :=
  fold_right (fun p acc => add_pt (fst p) (add_pt (snd p + 1) acc)) [0] hs.

Lemma pts_of_sorted : forall hs, ssorted (pts_of hs).
Proof.
  induction hs as [|p hs IH]; cbn [pts_of fold_right].
  - cbn [ssorted]. split; [intros y []|exact I].
  - apply add_pt_sorted, add_pt_sorted. exact IH.
Qed.

Lemma pts_of_in : forall hs y,
  In y (pts_of hs) <->
  y = 0 \/ exists p, In p hs /\ in_range y = true /\ (y = fst p \/ y = snd p + 1).
Proof.
  induction hs as [|p hs IH]; intros y; cbn [pts_of fold_right].
  - cbn [In]. split.
    + intros [H|[]]. left. symmetry. exact H.
    + intros [H|[q [[] _]]]. left. symmetry. exact H.
  - fold (pts_of hs). rewrite !add_pt_in, IH. split.
    + intros [[-> Hr]|[[-> Hr]|[H|(q & Hq & Hr & Hy)]]].
      * right. exists p. split; [left; reflexivity|]. auto.
      * right. exists p. split; [left; reflexivity|]. auto.
      * left. exact H.
      * right. exists q. split; [right; exact Hq|]. auto.
    + intros [H|(q & [<-|Hq] & Hr & Hy)].
      * right. right. left. exact H.
      * destruct Hy as [->| ->]; [left|right; left]; auto.
      * right. right. right. exists q. auto.
Qed.

Lemma pts_of_range : forall hs y, In y (pts_of hs) -> 0 <= y <= 1114111.
Proof.
  intros hs y Hy. apply pts_of_in in Hy. destruct Hy as [->|(p & _ & Hr & _)]; [lia|].
  unfold in_range in Hr. lia.
Qed.

Lemma st_points_eq : forall st, st_points st = pts_of (flat_map heads st).
Proof. reflexivity. Qed.

Lemma ssorted_hd_le : forall p l y, ssorted (p :: l) -> In y (p :: l) -> p <= y.
Proof. intros p l y [Hp _] [<-|Hy]; [lia|]. specialize (Hp y Hy). lia. Qed.

Definition step_of (st : list re) (b : Z) : option (list re) :=
  if forallb is_empty (map (deriv b) st) then None else Some (map (deriv b) st).

Lemma atoms_cons2 : forall p q rest, atoms (p :: q :: rest) = (p, q - 1) :: atoms (q :: rest).
Proof. reflexivity. Qed.

Lemma atoms_lo_in : forall pts a, In a (atoms pts) -> In (fst a) pts.
Proof.
  induction pts as [|p [|q rest] IH]; intros a Ha; [destruct Ha| |rewrite atoms_cons2 in Ha].
  - destruct Ha as [<-|[]]. left. reflexivity.
  - destruct Ha as [<-|Ha]; [left; reflexivity|]. right. apply IH. exact Ha.
Qed.

Lemma build_cons : forall st a ats,
  build st (a :: ats) =
  match step_of st (fst a) with
  | Some s => (fst a, snd a, s) :: build st ats
  | None => build st ats
  end.
Proof.
  intros st a ats. unfold step_of. cbn [build]. cbv zeta.
  destruct (forallb is_empty (map (deriv (fst a)) st)); reflexivity.
Qed.

Lemma lookup_build_cons : forall st a ats c,
  lookup (list re) (build st (a :: ats)) c =
  match (if in1 a c then step_of st (fst a) else None) with
  | Some s => Some s
  | None => lookup (list re) (build st ats) c
  end.
Proof.
  intros st a ats c. rewrite build_cons. unfold in1.
  destruct (step_of st (fst a)); cbn [lookup];
    destruct ((fst a <=? c) && (c <=? snd a)); reflexivity.
Qed.

Lemma lookup_build_none : forall st ats c,
  (forall a, In a ats -> c < fst a) -> lookup (list re) (build st ats) c = None.
Proof.
  intros st ats c. induction ats as [|a ats IH]; intros H; [reflexivity|].
  rewrite lookup_build_cons, IH by (intros a' Ha'; apply H; right; exact Ha').
  pose proof (H a (or_introl eq_refl)) as Hlt.
  replace (in1 a c) with false by (unfold in1; lia). reflexivity.
Qed.

(* the transition list, read at c, is the entry of the greatest point below c:
   that point opens the one atom containing c *)
Lemma lookup_atoms : forall st c, c <= 1114111 -> forall pts p0,
  ssorted pts -> In p0 pts -> p0 <= c ->
  exists b, b <= c /\ (forall b', In b' pts -> b' <= c -> b' <= b) /\
            lookup (list re) (build st (atoms pts)) c = step_of st b.
Proof.
  intros st c Hc. induction pts as [|p [|q rest] IH]; intros p0 Hs Hp0 Hle; [destruct Hp0| |].
  - destruct Hp0 as [<-|[]]. exists p. split; [exact Hle|]. split.
    + intros b' [<-|[]] _. lia.
    + cbn [atoms]. rewrite lookup_build_cons.
      replace (in1 (p, 1114111) c) with true by (unfold in1; cbn [fst snd]; lia).
      cbn [fst build lookup]. destruct (step_of st p); reflexivity.
  - rewrite atoms_cons2, lookup_build_cons.
    destruct Hs as [Hp Hs]. pose proof (Hp q (or_introl eq_refl)) as Hpq.
    destruct (Z_le_gt_dec q c) as [Hqc|Hqc].
    + (* c lies beyond the first atom *)
      destruct (IH q Hs (or_introl eq_refl) Hqc) as (b & Hbc & Hgreat & Hl).
      pose proof (Hgreat q (or_introl eq_refl) Hqc) as Hqb.
      exists b. split; [exact Hbc|]. split.
      * intros b' [<-|Hb'] Hb'c; [lia|apply Hgreat; assumption].
      * replace (in1 (p, q - 1) c) with false by (unfold in1; cbn [fst snd]; lia). exact Hl.
    + (* c lies in the first atom; no later atom starts at or below c *)
      assert (Hlater : forall y, In y (q :: rest) -> c < y).
      { intros y Hy. pose proof (ssorted_hd_le q rest y Hs Hy). lia. }
      assert (Hpc : p <= c).
      { destruct Hp0 as [<-|Hp0]; [exact Hle|]. specialize (Hlater p0 Hp0). lia. }
      exists p. split; [exact Hpc|]. split.
      * intros b' [<-|Hb'] Hb'c; [lia|]. specialize (Hlater b' Hb'). lia.
      * replace (in1 (p, q - 1) c) with true by (unfold in1; cbn [fst snd]; lia).
        rewrite lookup_build_none by (intros a Ha; apply Hlater, atoms_lo_in, Ha).
        cbn [fst]. destruct (step_of st p); reflexivity.
Qed.

Lemma map_deriv_same : forall st c b,
  Forall (fun p => in1 p c = in1 p b) (flat_map heads st) ->
  map (deriv c) st = map (deriv b) st.
Proof.
  induction st as [|r st IH]; intros c b H; [reflexivity|].
  cbn [map flat_map] in *. apply Forall_app in H as [Hr Hst].
  rewrite (deriv_same r c b Hr), (IH c b Hst). reflexivity.
Qed.

Theorem view_lookup : forall rules st c,
  0 <= c <= 1114111 ->
  lookup (list re) (v_trans (re_view rules st)) c =
  (if forallb is_empty (map (deriv c) st) then None else Some (map (deriv c) st)).
Proof.
  intros rules st c Hc. cbn [re_view v_trans]. rewrite st_points_eq.
  set (hs := flat_map heads st).
  assert (H0 : In 0 (pts_of hs)) by (apply pts_of_in; left; reflexivity).
  destruct (lookup_atoms st c (proj2 Hc) (pts_of hs) 0 (pts_of_sorted hs) H0 (proj1 Hc))
    as (b & Hbc & Hgreat & ->).
  pose proof (Hgreat 0 H0 (proj1 Hc)) as Hb0.
  (* no boundary of a head class separates b from c, so both have the same derivatives *)
  replace (map (deriv c) st) with (map (deriv b) st); [reflexivity|]. symmetry.
  apply map_deriv_same, Forall_forall. fold hs. intros p Hp.
  assert (Hrep : forall y, y = fst p \/ y = snd p + 1 -> y <= c -> y <= b).
  { intros y Hy Hyc. destruct (Z_lt_ge_dec y 0) as [Hneg|Hpos]; [lia|].
    apply Hgreat; [|exact Hyc]. apply pts_of_in. right. exists p.
    split; [exact Hp|]. split; [unfold in_range; lia|exact Hy]. }
  pose proof (Hrep (fst p) (or_introl eq_refl)). pose proof (Hrep (snd p + 1) (or_intror eq_refl)).
  unfold in1. lia.
Qed.
Print Assumptions view_lookup.

Theorem view_lookup_eof : forall rules st,
  lookup (list re) (v_trans (re_view rules st)) (-1) = None.
Proof.
  intros rules st. cbn [re_view v_trans]. rewrite st_points_eq.
  apply lookup_build_none. intros a Ha. apply atoms_lo_in, pts_of_range in Ha. lia.
Qed.
Print Assumptions view_lookup_eof.
