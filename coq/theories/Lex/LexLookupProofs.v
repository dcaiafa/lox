(* The linear [lookup] of the view automaton is determined by boundary
   representatives, and the binary search of the generated PushRune computes
   exactly [lookup] on a decoded, sorted row. *)
From Coq Require Import List ZArith Lia Bool ZifyBool ZifyNat.
From Lox Require Import Lex.LexRuntime Lex.LexAuto.
Import ListNotations.
Local Open Scope Z_scope.

Lemma lookup_rep_core : forall (X : Type) (tr : list (Z * Z * X)) (r b : Z),
  b <= r ->
  (forall lo hi x, In (lo, hi, x) tr ->
     (lo <= r -> lo <= b) /\ (hi + 1 <= r -> hi + 1 <= b)) ->
  lookup X tr r = lookup X tr b.
Proof.
  intros X tr r b Hbr.
  induction tr as [|[[lo hi] x] rest IH]; intros H; cbn [lookup]; [reflexivity|].
  destruct (H lo hi x (or_introl eq_refl)) as [H1 H2].
  rewrite IH by (intros lo' hi' x' Hin; apply (H lo' hi' x'); right; exact Hin).
  destruct ((lo <=? r) && (r <=? hi)) eqn:E1;
    destruct ((lo <=? b) && (b <=? hi)) eqn:E2; try reflexivity; lia.
Qed.

Theorem lookup_rep : forall (X : Type) (tr : list (Z * Z * X)) (pts : list Z) (r : Z),
  (forall lo hi x, In (lo, hi, x) tr -> In lo pts /\ In (hi + 1) pts) ->
  forall b, In b pts -> b <= r ->
  (forall b', In b' pts -> b' <= r -> b' <= b) ->
  lookup X tr r = lookup X tr b.
Proof.
  intros X tr pts r Hpts b Hb Hbr Hmax.
  apply lookup_rep_core; [exact Hbr|].
  intros lo hi x Hin. destruct (Hpts lo hi x Hin) as [Hlo Hhi].
  split; intros Hle; apply Hmax; assumption.
Qed.
Print Assumptions lookup_rep.

(* p0 is the candidate found so far *)
Lemma max_below_from : forall (pts : list Z) (r p0 : Z), p0 <= r ->
  exists b, (b = p0 \/ In b pts) /\ p0 <= b <= r /\ forall b', In b' pts -> b' <= r -> b' <= b.
Proof.
  induction pts as [|p pts IH]; intros r p0 H0.
  - exists p0. split; [left; reflexivity|]. split; [lia|intros b' []].
  - destruct (Z_le_gt_dec p r) as [Hp|Hp].
    + destruct (IH r (Z.max p0 p) ltac:(lia)) as [b [Hb [Hr Hm]]]. exists b.
      split; [cbn [In]; destruct Hb as [->|Hb]; [lia|auto]|]. split; [lia|].
      intros b' [<-|Hb'] Hle; [lia|auto].
    + destruct (IH r p0 H0) as [b [Hb [Hr Hm]]]. exists b.
      split; [cbn [In]; tauto|]. split; [lia|]. intros b' [<-|Hb'] Hle; [lia|auto].
Qed.

Lemma nthz_some : forall l i v, nthz l i = Some v -> 0 <= i /\ nth_error l (Z.to_nat i) = Some v.
Proof.
  intros l i v H. unfold nthz in H. destruct (i <? 0) eqn:E; [discriminate|].
  split; [lia|exact H].
Qed.

Lemma take_triples_nth : forall n m i tr,
  take_triples n m i = Some tr ->
  length tr = n /\
  forall j lo hi s, nth_error tr j = Some (lo, hi, s) ->
    nthz m (i + Z.of_nat j * 3) = Some lo /\
    nthz m (i + Z.of_nat j * 3 + 1) = Some hi /\
    nthz m (i + Z.of_nat j * 3 + 2) = Some s.
Proof.
  induction n as [|n IH]; intros m i tr H; cbn [take_triples] in H.
  - injection H as <-. split; [reflexivity|]. intros [|j] lo hi s Hj; discriminate Hj.
  - destruct (nthz m i) as [a|] eqn:Ea; [|discriminate].
    destruct (nthz m (i + 1)) as [b|] eqn:Eb; [|discriminate].
    destruct (nthz m (i + 2)) as [c|] eqn:Ec; [|discriminate].
    destruct (take_triples n m (i + 3)) as [rest|] eqn:Er; [|discriminate].
    injection H as <-. destruct (IH m (i + 3) rest Er) as [Hlen Hnth].
    split; [cbn [length]; rewrite Hlen; reflexivity|].
    intros [|j] lo hi s Hj; cbn [nth_error] in Hj.
    + injection Hj as <- <- <-. rewrite Z.add_0_r. auto.
    + replace (i + Z.of_nat (S j) * 3) with (i + 3 + Z.of_nat j * 3) by lia. exact (Hnth j lo hi s Hj).
Qed.

Lemma sorted_in : forall tr prev lo hi s,
  sorted_disjoint prev tr = true -> In (lo, hi, s) tr -> prev < lo /\ lo <= hi.
Proof.
  induction tr as [|[[lo0 hi0] s0] rest IH]; intros prev lo hi s H Hin; [destruct Hin|].
  cbn [sorted_disjoint] in H. destruct Hin as [E|Hin].
  - injection E as <- <- <-. lia.
  - destruct (IH hi0 lo hi s ltac:(lia) Hin). lia.
Qed.

Lemma sorted_lt : forall tr prev j1 j2 lo1 hi1 s1 lo2 hi2 s2,
  sorted_disjoint prev tr = true -> (j1 < j2)%nat ->
  nth_error tr j1 = Some (lo1, hi1, s1) -> nth_error tr j2 = Some (lo2, hi2, s2) ->
  hi1 < lo2.
Proof.
  induction tr as [|[[lo0 hi0] s0] rest IH]; intros prev j1 j2 lo1 hi1 s1 lo2 hi2 s2 H Hlt H1 H2.
  - destruct j1; discriminate H1.
  - cbn [sorted_disjoint] in H. destruct j2 as [|j2]; [lia|]. cbn [nth_error] in H2.
    destruct j1 as [|j1]; cbn [nth_error] in H1.
    + injection H1 as <- <- <-.
      destruct (sorted_in rest hi0 lo2 hi2 s2 ltac:(lia) (nth_error_In _ _ H2)). lia.
    + apply (IH hi0 j1 j2 lo1 hi1 s1 lo2 hi2 s2); [lia|lia|assumption|assumption].
Qed.

Lemma sorted_le : forall tr prev j1 j2 lo1 hi1 s1 lo2 hi2 s2,
  sorted_disjoint prev tr = true -> (j1 <= j2)%nat ->
  nth_error tr j1 = Some (lo1, hi1, s1) -> nth_error tr j2 = Some (lo2, hi2, s2) ->
  lo1 <= lo2 /\ hi1 <= hi2.
Proof.
  intros tr prev j1 j2 lo1 hi1 s1 lo2 hi2 s2 H Hle H1 H2.
  destruct (Nat.eq_dec j1 j2) as [->|Hne].
  - rewrite H1 in H2. injection H2 as <- <- <-. lia.
  - pose proof (sorted_lt tr prev j1 j2 _ _ _ _ _ _ H ltac:(lia) H1 H2).
    destruct (sorted_in tr prev lo1 hi1 s1 H (nth_error_In _ _ H1)).
    destruct (sorted_in tr prev lo2 hi2 s2 H (nth_error_In _ _ H2)). lia.
Qed.

Lemma lookup_none_nth : forall (X : Type) (tr : list (Z * Z * X)) r,
  (forall j lo hi s, nth_error tr j = Some (lo, hi, s) -> r < lo \/ hi < r) ->
  lookup X tr r = None.
Proof.
  induction tr as [|[[lo hi] s] rest IH]; intros r H; cbn [lookup]; [reflexivity|].
  pose proof (H O lo hi s eq_refl) as H0.
  destruct ((lo <=? r) && (r <=? hi)) eqn:E; [lia|].
  apply IH. intros j lo' hi' s' Hj. apply (H (S j) lo' hi' s'). exact Hj.
Qed.

Lemma lookup_sorted_hit : forall tr prev r j lo hi s,
  sorted_disjoint prev tr = true -> nth_error tr j = Some (lo, hi, s) -> lo <= r <= hi ->
  lookup Z tr r = Some s.
Proof.
  induction tr as [|[[lo0 hi0] s0] rest IH]; intros prev r j lo hi s H Hj Hr; [destruct j; discriminate Hj|].
  cbn [lookup]. destruct j as [|j]; cbn [nth_error] in Hj.
  - injection Hj as -> -> ->. destruct ((lo <=? r) && (r <=? hi)) eqn:E; [reflexivity|lia].
  - pose proof (sorted_lt _ prev 0 (S j) lo0 hi0 s0 lo hi s H ltac:(lia) eq_refl Hj).
    destruct ((lo0 <=? r) && (r <=? hi0)) eqn:E; [lia|].
    cbn [sorted_disjoint] in H. apply (IH hi0 r j lo hi s); [lia|exact Hj|exact Hr].
Qed.

Lemma lookup_some_in : forall (X : Type) (tr : list (Z * Z * X)) r s,
  lookup X tr r = Some s -> exists lo hi, In (lo, hi, s) tr /\ lo <= r <= hi.
Proof.
  induction tr as [|[[lo hi] s0] rest IH]; intros r s H; cbn [lookup] in H; [discriminate|].
  destruct ((lo <=? r) && (r <=? hi)) eqn:E.
  - injection H as ->. exists lo, hi. split; [left; reflexivity|lia].
  - destruct (IH r s H) as [lo' [hi' [Hin Hr]]]. exists lo', hi'. split; [right; exact Hin|exact Hr].
Qed.

(* the window [b, e) holds every entry that can contain r.  Out of fuel the
   model answers "no transition" like an ordinary miss; the bound on e - b
   keeps that case out *)
Lemma bsearch_spec : forall m i r tr prev,
  (forall j lo hi s, nth_error tr j = Some (lo, hi, s) ->
     nthz m (i + Z.of_nat j * 3) = Some lo /\
     nthz m (i + Z.of_nat j * 3 + 1) = Some hi /\
     nthz m (i + Z.of_nat j * 3 + 2) = Some s) ->
  sorted_disjoint prev tr = true ->
  forall fuel b e,
  0 <= b -> e <= Z.of_nat (length tr) -> (Z.to_nat (e - b) < fuel)%nat ->
  (forall j lo hi s, nth_error tr j = Some (lo, hi, s) -> Z.of_nat j < b -> hi < r) ->
  (forall j lo hi s, nth_error tr j = Some (lo, hi, s) -> e <= Z.of_nat j -> r < lo) ->
  bsearch fuel m i r b e = Some (lookup Z tr r).
Proof.
  intros m i r tr prev Hdec Hsorted.
  induction fuel as [|f IH]; intros b e Hb He Hfuel Hlow Hhigh; [lia|].
  cbn [bsearch]. destruct (b <? e) eqn:Hbe.
  - set (j := b + (e - b) / 2).
    assert (Hj : b <= j < e) by (unfold j; lia). clearbody j.
    destruct (nth_error tr (Z.to_nat j)) as [[[lo hi] s]|] eqn:Ej.
    2:{ apply nth_error_None in Ej. lia. }
    destruct (Hdec _ lo hi s Ej) as [D1 [D2 D3]]. rewrite Z2Nat.id in D1, D2, D3 by lia.
    rewrite D1, D2.
    destruct ((r >=? lo) && (r <=? hi)) eqn:Ehit.
    + rewrite D3. f_equal. symmetry.
      apply (lookup_sorted_hit tr prev r (Z.to_nat j) lo hi s Hsorted Ej). lia.
    + destruct (r <? lo) eqn:Elo.
      * apply IH; [lia|lia|lia|exact Hlow|].
        intros j' lo' hi' s' Hj' Hge.
        destruct (sorted_le tr prev (Z.to_nat j) j' lo hi s lo' hi' s' Hsorted ltac:(lia) Ej Hj'). lia.
      * apply IH; [lia|lia|lia| |exact Hhigh].
        intros j' lo' hi' s' Hj' Hlt.
        destruct (sorted_le tr prev j' (Z.to_nat j) lo' hi' s' lo hi s Hsorted ltac:(lia) Hj' Ej). lia.
  - f_equal. symmetry. apply lookup_none_nth.
    intros j lo hi s Hj.
    destruct (Z_lt_ge_dec (Z.of_nat j) b) as [Hlt|Hge].
    + right. apply (Hlow j lo hi s Hj Hlt).
    + left. apply (Hhigh j lo hi s Hj). lia.
Qed.

(* the row of state s lies at i0 = m[s] as count, flags, goto_n, goto_n
   triples, n action pairs *)
Lemma decode_row_inv : forall m s v,
  decode_row m s = Some v ->
  exists i0 count flags goto_n n,
    nthz m s = Some i0 /\ nthz m i0 = Some count /\
    nthz m (i0 + 1) = Some flags /\ nthz m (i0 + 2) = Some goto_n /\
    0 <= goto_n /\ count = 2 + 3 * goto_n + 2 * Z.of_nat n /\
    v_flag v = negb (Z.land flags 1 =? 0) /\
    take_triples (Z.to_nat goto_n) m (i0 + 3) = Some (v_trans v) /\
    take_pairs n m (i0 + 3 + 3 * goto_n) = Some (v_acts v).
Proof.
  intros m s v H. unfold decode_row in H.
  destruct (nthz m s) as [i0|] eqn:E0; [|discriminate].
  destruct (nthz m i0) as [count|] eqn:E1; [|discriminate].
  destruct (nthz m (i0 + 1)) as [flags|] eqn:E2; [|discriminate].
  destruct (nthz m (i0 + 2)) as [goto_n|] eqn:E3; [|discriminate].
  cbv zeta in H.
  destruct ((goto_n <? 0) || (count - 2 - 3 * goto_n <? 0) || negb (Z.even (count - 2 - 3 * goto_n))) eqn:Eg;
    [discriminate|].
  destruct (take_triples (Z.to_nat goto_n) m (i0 + 3)) as [tr|] eqn:Et; [|discriminate].
  destruct (take_pairs (Z.to_nat ((count - 2 - 3 * goto_n) / 2)) m (i0 + 3 + 3 * goto_n)) as [ac|] eqn:Ep;
    [|discriminate].
  injection H as <-. cbn [v_flag v_trans v_acts].
  apply orb_false_iff in Eg. destruct Eg as [Eg Eeven].
  apply orb_false_iff in Eg. destruct Eg as [Eg1 Eg2].
  apply negb_false_iff in Eeven. apply Z.even_spec in Eeven. destruct Eeven as [k Hk].
  exists i0, count, flags, goto_n, (Z.to_nat ((count - 2 - 3 * goto_n) / 2)).
  repeat split; try assumption; lia.
Qed.

Lemma bsearch_triples : forall m i g tr prev r,
  take_triples (Z.to_nat g) m i = Some tr ->
  sorted_disjoint prev tr = true ->
  bsearch (S (Z.to_nat g)) m i r 0 g = Some (lookup Z tr r).
Proof.
  intros m i g tr prev r Ht Hsorted.
  destruct (take_triples_nth _ _ _ _ Ht) as [Hlen Hnth].
  apply (bsearch_spec m i r tr prev Hnth Hsorted); try lia.
  intros j lo hi s' Hj Hge.
  assert (Hlt : (j < length tr)%nat) by (apply nth_error_Some; rewrite Hj; discriminate). lia.
Qed.

Theorem bsearch_lookup : forall m s v r,
  decode_row m s = Some v ->
  sorted_disjoint (-1) (v_trans v) = true ->
  exists i0 count flags goto_n,
    nthz m s = Some i0 /\ nthz m i0 = Some count /\
    nthz m (i0 + 1) = Some flags /\ nthz m (i0 + 1 + 1) = Some goto_n /\
    bsearch (S (Z.to_nat goto_n)) m (i0 + 1 + 2) r 0 goto_n = Some (lookup Z (v_trans v) r).
Proof.
  intros m s v r Hdec Hsorted.
  destruct (decode_row_inv m s v Hdec) as
    [i0 [count [flags [goto_n [n [E0 [E1 [E2 [E3 [Hg [Hc [Hf [Ht Hp]]]]]]]]]]]]].
  exists i0, count, flags, goto_n.
  replace (i0 + 1 + 1) with (i0 + 2) by lia. replace (i0 + 1 + 2) with (i0 + 3) by lia.
  repeat split; try assumption.
  apply (bsearch_triples m (i0 + 3) goto_n (v_trans v) (-1) r Ht Hsorted).
Qed.
Print Assumptions bsearch_lookup.
