(* A [closed] list of visited pairs is a bisimulation between the view
   machine of the emitted tables and the reference view machine, hence the
   emitted tables and the reference lex every input identically. *)
From Coq Require Import List ZArith Lia Bool.
From Lox Require Import Lex.LexRuntime Lex.LexAuto Lex.LexEquiv Lex.LexLookupProofs
  Lex.LexDecodeProofs Lex.LexDriverProofs.
Import ListNotations.
Local Open Scope Z_scope.

Lemma lookup_at_rep : forall (X : Type) (tr : list (Z * Z * X)) (bs : list Z) r b,
  incl (bounds_of tr) bs -> b <= r -> (forall p, In p bs -> p <= r -> p <= b) ->
  lookup X tr r = lookup X tr b.
Proof.
  intros X tr bs r b Hincl Hbr Hmax. apply lookup_rep_core; [exact Hbr|].
  intros lo hi x Hin.
  assert (Hb : incl [lo; hi + 1] bs).
  { intros p Hp. apply Hincl, in_flat_map. exists (lo, hi, x). split; [exact Hin|exact Hp]. }
  split; intros Hle; (apply Hmax; [apply Hb; cbn [In]; auto|exact Hle]).
Qed.

Lemma acts_eqb_eq : forall a b, acts_eqb a b = true -> a = b.
Proof.
  induction a as [|[t p] a IH]; intros [|[t' p'] b] H; unfold acts_eqb in H; cbn [length combine forallb] in H;
    try reflexivity; try discriminate.
  apply andb_true_iff in H. destruct H as [Hlen H].
  apply andb_true_iff in H. destruct H as [Hhd Htl].
  cbn [fst snd] in Hhd.
  assert (t = t' /\ p = p') as [-> ->] by lia.
  f_equal. apply IH. unfold acts_eqb. apply andb_true_iff. split; [|exact Htl].
  cbn [Nat.eqb] in Hlen. exact Hlen.
Qed.

(* the points [check_pair] tries: among them is the greatest boundary below
   any r of the range; boundaries outside the range lie below -1 or above r *)
Lemma rep_in_range : forall (l : list Z) r, -1 <= r <= 1114111 ->
  exists b, In b (filter (fun b => (-1 <=? b) && (b <=? 1114111)) (-1 :: 0 :: l)) /\
            b <= r /\ forall p, In p l -> p <= r -> p <= b.
Proof.
  intros l r Hr. set (pts := filter _ _).
  assert (Hm1 : In (-1) pts) by (apply filter_In; split; [left; reflexivity|reflexivity]).
  destruct (max_below_from pts r (-1) ltac:(lia)) as [b [Hb [Hbr Hmax]]].
  exists b. split; [destruct Hb as [->|Hb]; assumption|]. split; [lia|].
  intros p Hp Hpr. destruct (Z_lt_ge_dec p (-1)) as [Hlow|Hge].
  - specialize (Hmax (-1) Hm1). lia.
  - apply Hmax; [|exact Hpr]. apply filter_In. split; [right; right; exact Hp|lia].
Qed.

Section Equiv.
Variable R : Type.
Variable reqb : R -> R -> bool.
Variable modes : list (list Z).
Variable RA : nat -> R -> option (view R).
Variable rstart : nat -> R.
Variable visited : list (pair R).

Hypothesis reqb_ok : forall a b, reqb a b = true <-> a = b.
Hypothesis Hclosed : closed R reqb modes RA rstart visited = true.

Lemma existsb_pair_in : forall p, existsb (pair_eqb R reqb p) visited = true -> In p visited.
Proof.
  intros [[m s] r] H. apply existsb_exists in H. destruct H as [[[m' s'] r'] [Hin H]].
  unfold pair_eqb in H.
  apply andb_true_iff in H. destruct H as [H H3].
  apply andb_true_iff in H. destruct H as [H1 H2].
  apply Nat.eqb_eq in H1. apply Z.eqb_eq in H2. apply reqb_ok in H3. subst. exact Hin.
Qed.

Lemma closed_start : forall m, (m < length modes)%nat -> In (m, 0, rstart m) visited.
Proof.
  intros m Hm. unfold closed in Hclosed. apply andb_true_iff in Hclosed. destruct Hclosed as [H _].
  rewrite forallb_forall in H. apply existsb_pair_in. apply H. apply in_seq. clear - Hm. lia.
Qed.

Definition row_pts (vt : view Z) (vr : view R) : list Z :=
  filter (fun b => (-1 <=? b) && (b <=? 1114111))
         (-1 :: 0 :: bounds_of (v_trans vt) ++ bounds_of (v_trans vr)).

Lemma closed_pair : forall m s rs,
  In (m, s, rs) visited ->
  exists vt vr,
    table_auto modes m s = Some vt /\ RA m rs = Some vr /\
    v_flag vt = v_flag vr /\ v_acts vt = v_acts vr /\
    (v_flag vt = false -> forall b, In b (row_pts vt vr) ->
       match lookup Z (v_trans vt) b, lookup R (v_trans vr) b with
       | None, None => True
       | Some s', Some r' => In (m, s', r') visited
       | _, _ => False
       end).
Proof.
  intros m s rs Hin. unfold closed in Hclosed. apply andb_true_iff in Hclosed.
  destruct Hclosed as [_ H]. rewrite forallb_forall in H. specialize (H _ Hin).
  unfold check_pair in H.
  destruct (table_auto modes m s) as [vt|]; [|discriminate].
  destruct (RA m rs) as [vr|]; [|discriminate].
  exists vt, vr. split; [reflexivity|]. split; [reflexivity|].
  destruct (negb (eqb (v_flag vt) (v_flag vr))) eqn:Ef; [discriminate|].
  apply negb_false_iff in Ef. apply eqb_prop in Ef.
  destruct (negb (acts_eqb (v_acts vt) (v_acts vr))) eqn:Ea; [discriminate|].
  apply negb_false_iff in Ea. apply acts_eqb_eq in Ea.
  split; [exact Ef|]. split; [exact Ea|].
  intros Hflag b Hb. rewrite Hflag in H. cbv zeta in H. fold (row_pts vt vr) in H.
  (* check_pair returns a pair (successors, reason): its test is under a let *)
  match type of H with
  | (let (_, _) := if forallb ?f ?l then _ else _ in _) = true =>
    destruct (forallb f l) eqn:Hall
  end.
  2:{ discriminate. }
  rewrite forallb_forall in Hall. specialize (Hall b Hb). cbv beta in Hall.
  rewrite forallb_forall in H.
  destruct (lookup Z (v_trans vt) b) as [s'|] eqn:Et;
    destruct (lookup R (v_trans vr) b) as [r'|] eqn:Er; try discriminate; [|exact I].
  apply existsb_pair_in.
  apply (H (b, (m, s', r'))).
  apply in_flat_map. exists b. split; [exact Hb|].
  rewrite Et, Er. left. reflexivity.
Qed.

(* rel4w: the machine over the decoded tables and the one over the reference
   agree in everything but the state; rel4: and the pair of their states has
   been visited.  Only rel4w survives an answer lexError or lexEOF (NOTE at
   equiv_step). *)
Definition rel4w (gl : gsm Z) (gr : gsm R) : Prop :=
  g_token gl = g_token gr /\ g_fresh gl = g_fresh gr /\ g_accum gl = g_accum gr /\
  g_mode gl = g_mode gr /\
  g_stack gl = g_stack gr /\ (g_mode gl < length modes)%nat /\
  Forall (fun m => (m < length modes)%nat) (g_stack gl).

Definition rel4 (gl : gsm Z) (gr : gsm R) : Prop :=
  rel4w gl gr /\ In (g_mode gl, g_state gl, g_state gr) visited.

Lemma rel4_reset : forall gl gr,
  rel4w gl gr -> rel4 (g_reset Z (fun _ => 0) gl) (g_reset R rstart gr).
Proof.
  intros gl gr (Ht & Hf & Ha & Hm & Hs & Hlt & Hst).
  assert (H0 : (0 < length modes)%nat) by (clear - Hlt; lia).
  split; [|apply closed_start, H0]. repeat split; try assumption; reflexivity.
Qed.

Lemma rel4w_mk : forall tok f a md st s rs,
  (md < length modes)%nat -> stack_ok (length modes) st ->
  rel4w (Build_gsm Z tok s f a md st) (Build_gsm R tok rs f a md st).
Proof. intros. repeat split; assumption. Qed.

(* the non-consuming answer depends on the state only through flags, mode
   and stack *)
Lemma g_stuck_rel : forall acts tok s rs f a md st r,
  (md < length modes)%nat -> stack_ok (length modes) st ->
  match g_stuck Z (fun _ => 0) (length modes) acts (Build_gsm Z tok s f a md st) r,
        g_stuck R rstart (length modes) acts (Build_gsm R tok rs f a md st) r with
  | None, None => True
  | Some (c, gl'), Some (c', gr') =>
    c = c' /\ rel4w gl' gr' /\ (c <> lexError -> c <> lexEOF -> rel4 gl' gr')
  | _, _ => False
  end.
Proof.
  intros acts tok s rs f a md st r Hmd Hst. unfold g_stuck. cbn [g_fresh g_accum].
  destruct f.
  - split; [reflexivity|]. split; [apply rel4w_mk; assumption|].
    unfold stuck_code. destruct ((r =? -1) && negb a); intros H1 H2; [contradiction H2|contradiction H1]; reflexivity.
  - rewrite !g_actions_spec.
    pose proof (act_spec_inv (length modes) acts acts md st (incl_refl _) Hmd Hst) as Hinv.
    destruct (act_spec (length modes) acts md st) as [|m' st'|c tk m' st'|m' st'];
      cbn [g_out g_after].
    + exact I.
    + destruct Hinv as [Hm' Hst']. split; [reflexivity|]. split; [apply rel4w_mk; assumption|].
      intros H1. contradiction H1. reflexivity.
    + destruct Hinv as [Hm' Hst']. split; [reflexivity|]. split; [apply rel4w_mk; assumption|].
      intros _ _. split; [apply rel4w_mk; assumption|]. apply closed_start. exact Hm'.
    + destruct Hinv as [Hm' Hst']. split; [reflexivity|]. split; [apply rel4w_mk; assumption|].
      intros H1. contradiction H1. reflexivity.
Qed.

(* NOTE: when the code is lexError or lexEOF only [rel4w] is claimed: an action
   list that changes the mode and then falls through (or fails a pop) keeps
   the old state numbers in the new mode, and that triple need not be visited.
   The driver resets after an error and stops after EOF; [rel4_reset]. *)
Theorem equiv_step : forall gl gr r,
  rel4 gl gr -> -1 <= r <= 1114111 ->
  match g_push_rune Z (table_auto modes) (fun _ => 0) (length modes) gl r,
        g_push_rune R RA rstart (length modes) gr r with
  | None, None => True
  | Some (c, gl'), Some (c', gr') =>
    c = c' /\ rel4w gl' gr' /\ (c <> lexError -> c <> lexEOF -> rel4 gl' gr')
  | _, _ => False
  end.
Proof.
  intros [tok s f a md st] [tok' rs f' a' md' st'] r [(Ht & Hf & Ha & Hm & Hs & Hlt & Hst) Hvis] Hr.
  cbn [g_token g_state g_fresh g_accum g_mode g_stack] in *. subst tok' f' a' md' st'.
  destruct (closed_pair _ _ _ Hvis) as [vt [vr [Et [Er [Hflag [Hacts Hstep]]]]]].
  rewrite (g_push_rune_row Z (table_auto modes) (fun _ => 0) (length modes) (Build_gsm Z tok s f a md st) vt r Et).
  rewrite (g_push_rune_row R RA rstart (length modes) (Build_gsm R tok rs f a md st) vr r Er).
  rewrite <- Hflag, <- Hacts. cbn [g_token g_accum g_mode g_stack].
  pose proof (g_stuck_rel (v_acts vt) tok s rs f a md st r Hlt Hst) as Hstuck.
  destruct (v_flag vt) eqn:Efl; [exact Hstuck|].
  (* r and the greatest boundary point b below it are looked up alike on both sides *)
  destruct (rep_in_range (bounds_of (v_trans vt) ++ bounds_of (v_trans vr)) r Hr) as [b [Hb [Hbr Hpt]]].
  fold (row_pts vt vr) in Hb.
  rewrite (lookup_at_rep Z (v_trans vt) _ r b (incl_appl _ (incl_refl _)) Hbr Hpt).
  rewrite (lookup_at_rep R (v_trans vr) _ r b (incl_appr _ (incl_refl _)) Hbr Hpt).
  specialize (Hstep eq_refl b Hb).
  destruct (lookup Z (v_trans vt) b) as [s'|]; destruct (lookup R (v_trans vr) b) as [r'|];
    try contradiction; [|exact Hstuck].
  split; [reflexivity|]. split; [apply rel4w_mk; assumption|].
  intros _ _. split; [apply rel4w_mk; assumption|]. exact Hstep.
Qed.

Hypothesis Hwf : modes_wf modes = true.

Theorem equiv_lex_ref : forall fuel inp,
  (forall r w, In (r, w) inp -> 0 <= r <= 1114111) ->
  g_lex Z (table_auto modes) (fun _ => 0) (length modes) fuel inp =
  g_lex R RA rstart (length modes) fuel inp.
Proof.
  intros fuel inp Hinp. unfold g_lex.
  apply (lex_input_bisim _ _ _ _ _ _ _ _ rel4 rel4w (fun r => -1 <= r <= 1114111)).
  - lia.
  - intros a b Hw. apply Hw.
  - exact rel4_reset.
  - exact equiv_step.
  - pose proof (modes_wf_nonempty modes Hwf) as Hne.
    apply (rel4_reset (g_init Z (fun _ => 0)) (g_init R rstart)).
    repeat split; [exact Hne|constructor].
  - intros r w Hin. specialize (Hinp r w Hin). lia.
Qed.

End Equiv.

Theorem decode_lex : forall modes fuel inp,
  modes_wf modes = true ->
  lex_tables modes fuel inp = g_lex Z (table_auto modes) (fun _ => 0) (length modes) fuel inp.
Proof.
  intros modes fuel inp Hwf. unfold lex_tables, g_lex.
  apply (lex_input_bisim _ _ _ _ _ _ _ _
           (fun l gl => gl = to_gsm l /\ sm_inv modes l)
           (fun l gl => gl = to_gsm l /\ sm_inv_w modes l) (fun _ => True)); try exact I.
  - intros l gl [-> _]. reflexivity.
  - intros l gl [-> Hw]. split; [reflexivity|apply sm_inv_reset; assumption].
  - intros l gl r [-> Hinv] _. rewrite (push_rune_decode modes l r Hwf Hinv).
    destruct (push_rune_inv modes l r Hwf Hinv) as (c & l' & -> & Hw & Hfull & _).
    cbn [option_map fst snd]. split; [reflexivity|]. split; [split; [reflexivity|exact Hw]|].
    intros Hc _. split; [reflexivity|exact (Hfull Hc)].
  - split; [reflexivity|apply sm_inv_init; exact Hwf].
  - intros; exact I.
Qed.
Print Assumptions decode_lex.

Theorem equiv_lex : forall (R : Type) (reqb : R -> R -> bool) (modes : list (list Z))
    (RA : nat -> R -> option (view R)) (rstart : nat -> R) (visited : list (pair R)),
  (forall a b, reqb a b = true <-> a = b) ->
  closed R reqb modes RA rstart visited = true ->
  modes_wf modes = true ->
  forall fuel inp, (forall r w, In (r, w) inp -> 0 <= r <= 1114111) ->
  lex_tables modes fuel inp = g_lex R RA rstart (length modes) fuel inp.
Proof.
  intros R reqb modes RA rstart visited Hreqb Hclosed Hwf fuel inp Hinp.
  rewrite (decode_lex modes fuel inp Hwf).
  apply (equiv_lex_ref R reqb modes RA rstart visited Hreqb Hclosed Hwf fuel inp Hinp).
Qed.
Print Assumptions equiv_step.
Print Assumptions equiv_lex.
