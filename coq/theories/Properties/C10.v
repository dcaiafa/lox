(* C10 — emitted tables are faithful to the automata they encode.  Statements only. *)
From Coq Require Import List ZArith.
From Lox Require Import Parse.Tables Lex.LexRuntime Lex.LexAuto Lex.LexEquiv Lex.LexLookupProofs
  Lex.LexEquivProofs Gen.TableEnc Gen.TableEncProofs.
Import ListNotations.
Open Scope Z_scope.

(* the row-compression encoder (codegen/table.go), for ALL row lists *)

(* reading the array the way the generated code does returns each row; gaps read -1 *)
Theorem C10_array_decode :
  forall rows arr, build rows = Some arr ->
    (forall i row, In (i, row) rows ->
       read_row arr (Z.of_nat i) = Some row /\
       exists off, nthz arr (Z.of_nat i) = Some off /\ nthz arr off = Some (Z.of_nat (length row)) /\
                   seg arr (off + 1) row) /\
    (forall i m row', In (m, row') rows -> (i <= m)%nat -> ~ In i (map fst rows) ->
       nthz arr (Z.of_nat i) = Some (-1) /\ read_row arr (Z.of_nat i) = None).
Proof. exact array_decode. Qed.
Print Assumptions C10_array_decode.

(* rows share storage only when identical (the varint row key is injective) *)
Theorem C10_share_iff_identical :
  forall miss rows arr, build_with miss rows = Some arr ->
    forall i1 r1 i2 r2, In (i1, r1) rows -> In (i2, r2) rows ->
      (nthz arr (Z.of_nat i1) = nthz arr (Z.of_nat i2) <-> r1 = r2).
Proof. exact share_iff_identical. Qed.
Print Assumptions C10_share_iff_identical.
Theorem C10_row_key_injective : forall r1 r2, row_key r1 = row_key r2 -> r1 = r2.
Proof. exact row_key_injective. Qed.
Print Assumptions C10_row_key_injective.

(* every index stays inside its table *)
Theorem C10_offsets_in_bounds :
  forall rows arr, build rows = Some arr ->
    forall i m row', In (m, row') rows -> (i <= m)%nat ->
      exists off, nthz arr (Z.of_nat i) = Some off /\
        (off = -1 \/
         exists row, In (i, row) rows /\ nthz arr off = Some (Z.of_nat (length row)) /\
                     seg arr (off + 1) row /\ Z.of_nat m < off /\
                     off + 1 + Z.of_nat (length row) <= Z.of_nat (length arr)).
Proof. exact offsets_in_bounds. Qed.
Print Assumptions C10_offsets_in_bounds.

(* _Find on the encoded parser rows is the association list that was encoded:
   the tables contain exactly the actions and gotos of the constructed automaton *)
Theorem C10_find_is_assoc :
  forall rows arr s ps, build rows = Some arr -> In (s, flat_pairs ps) rows -> NoDup (map fst ps) ->
    (forall x v, In (x, v) ps -> find arr (Z.of_nat s) x = FFound v) /\
    (forall x, ~ In x (map fst ps) -> find arr (Z.of_nat s) x = FNone) /\
    (forall x, find arr (Z.of_nat s) x <> FCrash).
Proof. exact find_is_assoc. Qed.
Print Assumptions C10_find_is_assoc.

(* a lexer row decodes to the flag, range triples and action pairs it was built from *)
Theorem C10_lex_row_decode :
  forall rows arr s flag trans acts, build_u rows = Some arr ->
    In (s, encode_lex_row flag trans acts) rows ->
    decode_row arr (Z.of_nat s) = Some {| v_flag := flag; v_trans := trans; v_acts := acts |}.
Proof. exact lex_row_decode. Qed.
Print Assumptions C10_lex_row_decode.

(* the linear lookup of a row takes the same value at r and at the greatest
   listed boundary point below r: checking the boundary points checks every r *)
Theorem C10_lookup_rep :
  forall (X : Type) (tr : list (Z * Z * X)) (pts : list Z) (r : Z),
    (forall lo hi x, In (lo, hi, x) tr -> In lo pts /\ In (hi + 1) pts) ->
    forall b, In b pts -> b <= r -> (forall b', In b' pts -> b' <= r -> b' <= b) ->
      lookup X tr r = lookup X tr b.
Proof. exact lookup_rep. Qed.
Print Assumptions C10_lookup_rep.

(* a closed product exploration against ANY reference automaton (here: the
   powerset of the dumped NFA) makes table and reference equal on all strings *)
Theorem C10_equiv_lex :
  forall (R : Type) (reqb : R -> R -> bool) (modes : list (list Z))
         (RA : nat -> R -> option (view R)) (rstart : nat -> R) (visited : list (pair R)),
    (forall a b, reqb a b = true <-> a = b) ->
    closed R reqb modes RA rstart visited = true ->
    modes_wf modes = true ->
    forall fuel inp,
      (forall r w, In (r, w) inp -> 0 <= r <= 1114111) ->
      lex_tables modes fuel inp = g_lex R RA rstart (length modes) fuel inp.
Proof. exact equiv_lex. Qed.
Print Assumptions C10_equiv_lex.
