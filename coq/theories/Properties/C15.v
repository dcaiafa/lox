(* C15 — character classes and literals denote exact code-point sets.
   Statements only.  The model (Rang3/RangeModel.v, ClassModel.v) is tied to
   internal/lexergen/rang3 and internal/ast/char_class*.go by exact
   differential comparison on every run. *)
From Coq Require Import List ZArith Sorting.Sorted Sorting.Permutation.
From Lox Require Import Rang3.RangeModel Rang3.ClassModel Rang3.RangeProofs Rang3.RangeProofsSub
  Rang3.RangeProofsClass Rang3.RangeProofsUniq Rang3.RangeProofsNorm.
From Lox Require Import Lex.Utf8Model Gen.EscapeModel Gen.EscapeRune Gen.EscapeRuneProofs
  Gen.PairProofs.
Import ListNotations.
Open Scope Z_scope.

(* Flatten: merging never adds or loses a code point, for every list of well-formed ranges. *)
Theorem C15_flatten_denotes : forall l, Forall wfr l -> forall c, inrs c (flatten l) <-> inrs c l.
Proof. exact flatten_denotes. Qed.
Print Assumptions C15_flatten_denotes.

(* ... and its result is sorted, well-formed and gap-separated (hence a valid sorted disjoint table row). *)
Theorem C15_flatten_canon : forall l, Forall wfr l -> canon (flatten l).
Proof. exact flatten_canon. Qed.
Print Assumptions C15_flatten_canon.

(* The result does not depend on how the unstable second sort orders ranges with equal lower bound. *)
Theorem C15_flatten_any_order : forall l l', Forall wfr l -> Permutation l l' ->
  StronglySorted (fun a b => rB a <= rB b) l' ->
  (forall c, inrs c (fst (merge_pass [] [] l')) <-> inrs c l) /\
  fst (merge_pass [] [] l') = flatten l.
Proof. exact flatten_any_order. Qed.
Print Assumptions C15_flatten_any_order.

(* Subtract is set difference, terminates within the model's fuel, for all well-formed inputs. *)
Theorem C15_subtract_denotes : forall a b, Forall wfr a -> Forall wfr b ->
  exists r, subtract a b = Some r /\ (forall c, inrs c r <-> inrs c a /\ ~ inrs c b).
Proof. exact subtract_denotes. Qed.
Print Assumptions C15_subtract_denotes.

Theorem C15_subtract_sorted : forall a b r, canon a -> Forall wfr b -> subtract a b = Some r ->
  StronglySorted (fun x y => rE x < rB y) r /\ Forall wfr r.
Proof. exact subtract_sorted. Qed.
Print Assumptions C15_subtract_sorted.

(* Normalize: every callback replaces a range by an exact disjoint partition of it ... *)
Theorem C15_normalize_calls_partition : forall l log, Forall wfr l -> normalize l = NDone log ->
  Forall (fun '(o,a,b,c) =>
    wfr a /\ wfr b /\ wfr c /\
    (forall x, inr x o <-> inr x a \/ inr x b \/ inr x c) /\
    (forall x, ~ (inr x a /\ inr x b)) /\
    (c = b \/ (forall x, ~ (inr x a /\ inr x c)) /\ (forall x, ~ (inr x b /\ inr x c)))) log.
Proof. exact normalize_calls_partition. Qed.
Print Assumptions C15_normalize_calls_partition.

(* ... the pieces left at the end are pairwise disjoint and cover exactly the original code points ... *)
Theorem C15_normalize_final_disjoint : forall l log, Forall wfr l -> normalize l = NDone log ->
  let final := replay (heap_of l) log in
  (forall p q, In p final -> In q final -> p = q \/ (forall x, ~ (inr x p /\ inr x q))) /\
  (forall x, inrs x final <-> inrs x l).
Proof. exact normalize_final_disjoint. Qed.
Print Assumptions C15_normalize_final_disjoint.

(* ... and the loop neither reaches its "not reached" panic nor runs out of the model's fuel. *)
Theorem C15_normalize_no_panic : forall l, Forall wfr l -> forall log, normalize l <> NPanic log.
Proof. exact normalize_no_panic. Qed.
Print Assumptions C15_normalize_no_panic.
Theorem C15_normalize_terminates : forall l, Forall wfr l -> normalize l <> NFuel.
Proof. exact normalize_fuel_enough. Qed.
Print Assumptions C15_normalize_terminates.

(* Class expressions (ranges, negation, difference, '.') denote their set-theoretic meaning on 0..0x10FFFF. *)
Theorem C15_class_denotes : forall e, cwf e ->
  exists rs, get_ranges e = Some rs /\ Forall wfr rs /\
    (forall c, 0 <= c <= max_rune -> (inrs c rs <-> csem e c)).
Proof. exact class_denotes. Qed.
Print Assumptions C15_class_denotes.

(* Non-vacuity: concrete overlapping, touching, boundary ranges meet the hypotheses. *)
Example C15_nonvacuous :
  Forall wfr [(0,3); (2,9); (10,10); (1114111,1114111)] /\
  flatten [(0,3); (2,9); (10,10); (1114111,1114111)] = [(0,10); (1114111,1114111)] /\
  cwf (CSub (CClass true [(97,122)]) (CClass false [(0,9)])) /\
  get_ranges (CSub (CClass true [(97,122)]) (CClass false [(0,9)])) = Some [(10,96); (123,1114111)].
Proof.
  split; [|split; [|split]].
  - repeat constructor; unfold wfr, rB, rE; cbn [fst snd]; apply Z.leb_le; vm_compute; reflexivity.
  - vm_compute; reflexivity.
  - cbn [cwf]. split; repeat constructor; cbn [rB rE fst snd]; try (apply Z.leb_le; vm_compute; reflexivity).
  - vm_compute; reflexivity.
Qed.

(* escapes (internal/parser/parser.go unescape / on_char_class toRune / lexer_term_literal.go).
   The code point a class item or a literal character stands for, through the
   models of unescape (bytes written) and of utf8.DecodeRune. *)

(* \uXXXX denotes exactly the code point XXXX, for every scalar value *)
Theorem C15_escape_u_denotes : forall ds, length ds = 4%nat -> forallb is_hex ds = true ->
  0 <= hex_value ds <= 1114111 -> ~ (55296 <= hex_value ds <= 57343) ->
  class_char_rune (92 :: 117 :: ds) = Some (hex_value ds).
Proof. exact escape_u_denotes. Qed.
Print Assumptions C15_escape_u_denotes.

(* \UXXXXXXXX likewise *)
Theorem C15_escape_U_denotes : forall ds, length ds = 8%nat -> forallb is_hex ds = true ->
  0 <= hex_value ds <= 1114111 -> ~ (55296 <= hex_value ds <= 57343) ->
  class_char_rune (92 :: 85 :: ds) = Some (hex_value ds).
Proof. exact escape_U_denotes. Qed.
Print Assumptions C15_escape_U_denotes.

(* \n \r \t \\ \- and the lone backslash *)
Theorem C15_escape_simple_denotes :
  class_char_rune [92; 110] = Some 10 /\ class_char_rune [92; 114] = Some 13 /\
  class_char_rune [92; 116] = Some 9 /\ class_char_rune [92; 92] = Some 92 /\
  class_char_rune [92; 45] = Some 45 /\ class_char_rune [92] = Some 92.
Proof. exact escape_simple_denotes. Qed.
Print Assumptions C15_escape_simple_denotes.

(* an unescaped character denotes itself, for every scalar value other than the backslash *)
Theorem C15_plain_char_denotes : forall r, 0 <= r <= 1114111 -> ~ (55296 <= r <= 57343) -> r <> 92 ->
  class_char_rune (encode_rune r) = Some r.
Proof. exact plain_char_denotes. Qed.
Print Assumptions C15_plain_char_denotes.

(* a literal without escapes matches exactly its code-point sequence *)
Theorem C15_literal_runes_plain : forall rs,
  Forall (fun r => (0 <= r <= 1114111 /\ ~ (55296 <= r <= 57343)) /\ r <> 92) rs ->
  literal_runes (encode_all rs) = Some rs.
Proof. exact literal_runes_plain. Qed.
Print Assumptions C15_literal_runes_plain.

(* outside the hypotheses the code does something else: \xff is a byte (decoded to U+FFFD),
   a surrogate or a value above U+10FFFF becomes U+FFFD.  The property's list of escapes
   does not include \x; the others are not code points. *)
Theorem C15_escape_oddities :
  class_char_rune [92; 120; 102; 102] = Some 65533 /\
  class_char_rune [92; 117; 100; 56; 48; 48] = Some 65533 /\
  class_char_rune [92; 85; 48; 48; 49; 49; 48; 48; 48; 48] = Some 65533 /\
  class_char_rune [92; 85; 70; 70; 70; 70; 70; 70; 70; 70] = Some 65533.
Proof. exact escape_oddities. Qed.
Print Assumptions C15_escape_oddities.

(* x-y pairing of class items (on_char_class).
   A class body written as items, each a character or character '-' character,
   is read back as exactly those items, whatever the characters are (the
   escaped dash, a CLASS_CHAR whose rune is 45, included). *)
Theorem C15_pair_render : forall its, class_items (flat_map render its) = map denote its.
Proof. exact pair_render. Qed.
Print Assumptions C15_pair_render.

(* an unescaped dash without a character on one side is a member, and an escaped dash never pairs *)
Theorem C15_pair_dash_edges : forall a,
  class_items [(false, a); (true, 45)] = [(a, a); (45, 45)] /\
  class_items [(true, 45); (false, a)] = [(45, 45); (a, a)] /\
  class_items [(false, a); (true, 45); (true, 45)] = [(a, 45)] /\
  class_items [(false, a); (false, 45); (false, a)] = [(a, a); (45, 45); (a, a)].
Proof. exact pair_dash_edges. Qed.
Print Assumptions C15_pair_dash_edges.
