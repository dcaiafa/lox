(* C05 — @left/@right(n) give the documented operator grouping.
   The reference "the way a precedence-climbing parser would" is Gen/PrecClimb.climb;
   these theorems say it returns THE unique tree that respects levels and
   associativity, so the differential check against it decides the property's
   wording.  The generated parser is compared with it per grammar by the harness
   (translation validation); the local conflict-resolution rule is proved below.
   [sr_cell] is defined in ResolveProofs, [doc_choice] in PrecClimbProofs. *)
From Coq Require Import List.
From Lox Require Import Gen.PrecClimb Gen.PrecClimbProofs Gen.ResolveModel Gen.ResolveProofs.
Import ListNotations.

Theorem C05_climb_characterised :
  forall tbl toks t, uniformb tbl = true ->
    (climb tbl toks = Some t <->
     yield t = toks /\ well_grouped tbl t = true /\ toks_known tbl toks = true).
Proof. exact climb_characterised. Qed.
Print Assumptions C05_climb_characterised.

Theorem C05_well_grouped_unique :
  forall tbl t1 t2, uniform tbl -> ops_known tbl t1 = true ->
    well_grouped tbl t1 = true -> well_grouped tbl t2 = true -> yield t1 = yield t2 -> t1 = t2.
Proof. exact well_grouped_unique. Qed.
Print Assumptions C05_well_grouped_unique.

(* PrecClimbProofs.climb_never_out_of_fuel is the same fact about the boolean
   [climb_out_of_fuel] the harness reads *)
Theorem C05_climb_never_out_of_fuel : forall tbl toks, climb_res tbl toks <> PFuel.
Proof. exact fuel_adequate. Qed.
Print Assumptions C05_climb_never_out_of_fuel.

(* the rule lox applies to a shift/reduce cell is the documented one (higher
   level wins; equal level: @left reduces, @right shifts), except in the case
   of the next theorem *)
Theorem C05_resolve_agrees_with_doc :
  forall prec assoc_right rule_of cell tgt sp p r q,
    sr_cell cell tgt sp p -> resolve prec assoc_right rule_of cell = Some r -> In q sp ->
    (~ (prec q = prec p /\ assoc_right p = true) \/ sp = [p]) ->
    r = if doc_choice prec assoc_right q p then [CShift tgt sp] else [CReduce p].
Proof. exact resolve_agrees_with_doc_unless_right_duplicate. Qed.
Print Assumptions C05_resolve_agrees_with_doc.

(* Known finding D5: at equal level with @right, when the shift action does not
   list exactly the reduced production once (it lists a production once per
   lookahead item), the reduce is kept although the documentation says shift. *)
Theorem C05_resolve_right_refuted :
  forall prec assoc_right rule_of cell tgt sp p r q,
    sr_cell cell tgt sp p -> resolve prec assoc_right rule_of cell = Some r -> In q sp ->
    prec q = prec p -> assoc_right p = true -> sp <> [p] ->
    doc_choice prec assoc_right q p = true /\ r = [CReduce p].
Proof. exact resolve_disagrees_with_doc_right. Qed.
Print Assumptions C05_resolve_right_refuted.
