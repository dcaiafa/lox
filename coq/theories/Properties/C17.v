(* C17 — ill-formed specifications are rejected at the right place; valid ones
   pass.  Statements only.  [analyze] (Gen/Analyze.v) mirrors lox's four
   semantic passes on an abstract specification and is compared with the real
   tool on every run (verdict, diagnostic kind, blamed declaration). *)
From Coq Require Import List.
From Lox Require Import Gen.Analyze Gen.AnalyzeProofs Gen.AnalyzeBlame Gen.AnalyzeExamples.
Import ListNotations.

(* well-formed specifications are never rejected *)
Theorem C17_analyze_sound_for_wf : forall s, well_formed s = true -> analyze s = [].
Proof. exact analyze_sound_for_wf. Qed.
Print Assumptions C17_analyze_sound_for_wf.

(* what lox accepts is exactly the weaker predicate (one clause of the property,
   the shape of parser rule names, is not enforced: rule_name_refuted) *)
Theorem C17_analyze_accepts_iff : forall s, analyze s = [] <-> well_formed_weak s = true.
Proof. exact analyze_accepts_iff. Qed.
Print Assumptions C17_analyze_accepts_iff.

(* every diagnostic with a position names a declaration that has a fault of that kind *)
Theorem C17_reject_points_into_fault :
  forall s k oi, In (k, oi) (analyze s) ->
    (k = KStartUndefined /\ oi = None) \/ (exists i, oi = Some i /\ fault_in s k i).
Proof. exact reject_points_into_fault. Qed.
Print Assumptions C17_reject_points_into_fault.

(* three clauses of the property that lox enforces through the fix: commits
   c05ffe8, 938df3a, b7deef5: such specifications are rejected with the right
   diagnostic *)
Theorem C17_reversed_range_rejected :
  analyze spec_reversed_range = [(KBadRange, Some 1)] /\ well_formed spec_reversed_range = false.
Proof. exact reversed_range_rejected. Qed.
Print Assumptions C17_reversed_range_rejected.
Theorem C17_unused_macro_cycle_rejected :
  analyze spec_unused_cycle = [(KMacroCycle, Some 2)] /\ well_formed spec_unused_cycle = false.
Proof. exact unused_macro_cycle_rejected. Qed.
Print Assumptions C17_unused_macro_cycle_rejected.
Theorem C17_empty_alias_rejected :
  analyze spec_empty_alias = [(KEmptyLiteral, Some 2)] /\ well_formed spec_empty_alias = false.
Proof. exact empty_alias_rejected. Qed.
Print Assumptions C17_empty_alias_rejected.

(* what remains: lox accepts exactly the well-formed specifications as soon as
   parser rule names have the documented shape (a name such as a__b is accepted
   although it can never be bound to an action) *)
Theorem C17_analyze_rejects_iff_modulo_rule_names :
  forall s, wf_rule_names s = true -> (analyze s = [] <-> well_formed s = true).
Proof. exact analyze_rejects_iff_modulo_rule_names. Qed.
Print Assumptions C17_analyze_rejects_iff_modulo_rule_names.
