(* C19 — token constants: one per terminal, EOF = 0, ERROR = 1, dense, in
   declaration order; _TokenToString total.  Statements only (the model
   Gen/Numbering.v is tied to base.gen.go, the lexer tables and the parser table
   keys by the harness on every run). *)
From Coq Require Import List String ZArith.
From Lox Require Import Gen.Numbering Gen.NumberingProofs.
Import ListNotations.

Theorem C19_eof_error_fixed :
  forall files,
    index_of (terminals files) "EOF"%string = Some 0 /\
    index_of (terminals files) "ERROR"%string = Some 1 /\
    token_to_string (terminals files) 0%Z = "EOF"%string /\
    token_to_string (terminals files) 1%Z = "ERROR"%string.
Proof. exact eof_error_fixed. Qed.
Print Assumptions C19_eof_error_fixed.

(* names <-> numbers is a bijection onto 0..n-1 *)
Theorem C19_numbering_dense :
  forall ts : list string, NoDup ts ->
    (forall i n, nth_error ts i = Some n -> index_of ts n = Some i) /\
    (forall n i, index_of ts n = Some i -> nth_error ts i = Some n /\ i < List.length ts) /\
    (forall n, In n ts <-> exists i, index_of ts n = Some i) /\
    (forall n m i, index_of ts n = Some i -> index_of ts m = Some i -> n = m).
Proof. exact numbering_dense. Qed.
Print Assumptions C19_numbering_dense.

(* which holds for every specification lox accepts (names distinct, not reserved) *)
Theorem C19_terminals_nodup :
  forall files, NoDup (spec_names files) ->
    ~ In "EOF"%string (spec_names files) -> ~ In "ERROR"%string (spec_names files) -> NoDup (terminals files).
Proof. exact terminals_nodup. Qed.
Print Assumptions C19_terminals_nodup.

(* _TokenToString: every constant maps to its name, every other value to "???" *)
Theorem C19_token_to_string_total :
  forall ts : list string,
    (forall n i, index_of ts n = Some i -> token_to_string ts (Z.of_nat i) = n) /\
    (forall t, (t < 0 \/ Z.of_nat (List.length ts) <= t)%Z -> token_to_string ts t = "???"%string).
Proof. exact token_to_string_total. Qed.
Print Assumptions C19_token_to_string_total.

(* the number of a token is 2 + the number of terminals declared before it,
   across files, modes and @external lists *)
Theorem C19_declaration_order :
  forall fpre dpre d dpost fpost npre n npost,
    decl_names d = npre ++ [n] ++ npost ->
    let files := fpre ++ [dpre ++ [d] ++ dpost] ++ fpost in
    NoDup (terminals files) ->
    index_of (terminals files) n =
      Some (2 + List.length (spec_names fpre) + List.length (decls_names dpre) + List.length npre).
Proof. exact declaration_order. Qed.
Print Assumptions C19_declaration_order.
