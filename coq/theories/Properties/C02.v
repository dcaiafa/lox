(* C02 — the lexer emits the longest viable match; the earliest declared rule wins.
   Statements only.  The chain of reasoning, for each lexer specification:
     emitted arrays --(modes_wf, closed: evaluated by the harness on the arrays
     read back from lexer.gen.go)--> equal, on every input, to the reference
     driver over the derivative automaton of the rules (C02_equiv_lex), whose
     single steps are characterised against the declarative semantics
     (C02_ref_consumes_longest_viable). *)
From Coq Require Import List ZArith Bool.
From Lox Require Import Lex.LexRuntime Lex.LexAuto Lex.LexEquiv Lex.RegexRef Lex.LexEquivProofs
  Lex.RegexProofs Lex.RegexProofs2 Lex.Utf8Model Lex.Utf8Proofs Lex.Utf8Lex.
Import ListNotations.
Open Scope Z_scope.

(* a closed product exploration makes the emitted tables and the reference equal on ALL inputs *)
Theorem C02_equiv_lex :
  forall (R : Type) (reqb : R -> R -> bool) (modes : list (list Z))
         (RA : nat -> R -> option (view R)) (rstart : nat -> R) (visited : list (pair R)),
    (forall a b, reqb a b = true <-> a = b) ->
    closed R reqb modes RA rstart visited = true ->
    modes_wf modes = true ->
    forall fuel inp,
      (forall r w, In (r, w) inp -> 0 <= r <= 1114111) ->
      lex_tables modes fuel inp = g_lex R RA rstart (length modes) fuel inp.
Proof. exact equiv_lex. Qed.
Print Assumptions C02_equiv_lex.

(* the instance used: states are derivative vectors, equality test reflects equality *)
Theorem C02_st_eqb_eq : forall a b, st_eqb a b = true <-> a = b.
Proof. exact st_eqb_eq. Qed.
Print Assumptions C02_st_eqb_eq.

(* derivatives are correct for the regular-expression semantics *)
Theorem C02_deriv_correct : forall r c w, matches (deriv c r) w <-> matches r (c :: w).
Proof. exact deriv_correct. Qed.
Print Assumptions C02_deriv_correct.
Theorem C02_nullable_correct : forall r, nullable r = true <-> matches r [].
Proof. exact nullable_correct. Qed.
Print Assumptions C02_nullable_correct.
Theorem C02_is_empty_correct : forall r, clean r -> (is_empty r = true <-> forall w, ~ matches r w).
Proof. exact is_empty_correct. Qed.
Print Assumptions C02_is_empty_correct.

(* a prefix is viable (still a prefix of some match of the mode) iff the state is not dead *)
Theorem C02_der_viable : forall rules u, wf_rules rules ->
  (forallb is_empty (der rules u) = false <-> viable rules u).
Proof. exact der_viable. Qed.
Print Assumptions C02_der_viable.

(* the label of a state is the earliest-declared rule matching exactly the text read *)
Theorem C02_der_label : forall rules u i,
  first_null (der rules u) = Some i <-> exists r, earliest rules u i r.
Proof. exact der_label. Qed.
Print Assumptions C02_der_label.

(* from a token boundary the reference consumes exactly the longest viable
   prefix u of the input, then acts as the earliest rule matching u (error/EOF
   if none); every prefix is consumed iff it is viable *)
Theorem C02_ref_consumes_longest_viable :
  forall (modes : list (list rule)) (m : nat) (s u rest : list Z) (l0 : gsm (list re)) (acts : list (Z * Z)),
    wf_rules (nth m modes []) -> greedy (nth m modes []) -> Forall in_unicode s ->
    in_state modes m l0 [] -> s = u ++ rest -> viable (nth m modes []) u ->
    (forall c rest', rest = c :: rest' -> ~ viable (nth m modes []) (u ++ [c])) ->
    sel_acts (nth m modes []) u acts ->
    exists l1,
      consume_all modes l0 u = Some l1 /\ in_state modes m l1 u /\
      g_token l1 = g_token l0 /\ g_stack l1 = g_stack l0 /\ g_accum l1 = g_accum l0 /\
      push modes l1 (next_char rest) = stuck_result modes acts l1 (next_char rest) /\
      (u <> [] -> push modes l1 (next_char rest) = act_result modes acts l1) /\
      (u = [] -> l1 = l0 /\
         push modes l1 (next_char rest) =
           Some (if (next_char rest =? -1) && negb (g_accum l0) then lexEOF else lexError, l0)) /\
      (forall code l2, push modes l1 (next_char rest) = Some (code, l2) -> code <> lexConsume) /\
      (forall u' rest', s = u' ++ rest' -> ((exists l', consume_all modes l0 u' = Some l') <-> viable (nth m modes []) u')).
Proof. exact ref_consumes_longest_viable. Qed.
Print Assumptions C02_ref_consumes_longest_viable.

(* the raw PushRune over the arrays (binary search, action loop) is the view machine *)
Theorem C02_decode_lex : forall modes fuel inp, modes_wf modes = true ->
  lex_tables modes fuel inp = g_lex Z (table_auto modes) (fun _ => 0) (length modes) fuel inp.
Proof. exact decode_lex. Qed.
Print Assumptions C02_decode_lex.

(* the input as BYTES: valid, invalid and truncated UTF-8.
   The driver's rune reader (bytes.Reader.ReadRune = utf8.DecodeRune on the
   unread suffix) is mirrored by Utf8Model.decode_all and compared with Go on
   every input the harness lexes. *)

(* every byte string decodes; the widths add up to the number of bytes and every
   code point handed to the state machine is a Unicode scalar value *)
Theorem C02_decode_all_total : forall bs,
  sum_widths (decode_all bs) = Z.of_nat (length bs) /\
  Forall (fun r => 0 <= r <= 1114111 /\ ~ (55296 <= r <= 57343)) (runes_of (decode_all bs)).
Proof. exact decode_all_total_gen. Qed.
Print Assumptions C02_decode_all_total.

(* a well-formed encoding decodes to its code point and its length ... *)
Theorem C02_decode_encode : forall r rest,
  0 <= r <= 1114111 -> ~ (55296 <= r <= 57343) ->
  decode_rune (encode_rune r ++ rest) = Some (r, Z.of_nat (length (encode_rune r)), rest).
Proof. exact decode_encode. Qed.
Print Assumptions C02_decode_encode.

(* ... and anything else is U+FFFD of width 1 (one byte skipped), nothing else *)
Theorem C02_decode_valid_or_replacement : forall bs r w rest,
  decode_rune bs = Some (r, w, rest) ->
  (r = RuneError /\ w = 1 /\ rest = tl bs /\ ~ valid_prefix bs) \/
  (scalar r /\ bs = encode_rune r ++ rest /\ w = Z.of_nat (length (encode_rune r))).
Proof. exact decode_valid_or_replacement. Qed.
Print Assumptions C02_decode_valid_or_replacement.

(* hence the equivalence with the reference holds on ALL byte strings, with no
   side condition on the input left *)
Theorem C02_equiv_lex_bytes :
  forall (R : Type) (reqb : R -> R -> bool) (modes : list (list Z))
         (RA : nat -> R -> option (view R)) (rstart : nat -> R) (visited : list (pair R)),
    (forall a b, reqb a b = true <-> a = b) ->
    closed R reqb modes RA rstart visited = true ->
    modes_wf modes = true ->
    forall fuel bs,
      lex_bytes modes fuel bs = g_lex R RA rstart (length modes) fuel (decode_all bs).
Proof. exact lex_bytes_equiv. Qed.
Print Assumptions C02_equiv_lex_bytes.
