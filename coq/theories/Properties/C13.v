(* C13 — output is deterministic: the iteration-order logic.  Statements only.
   Every `range` over a Go map in lox's non-test code is an instance of one of
   these patterns (audit in corpus/map_range_sites.json, re-checked for drift on
   every run); process and file-system behaviour is explored by repeated
   generation, not proved. *)
From Coq Require Import List Permutation.
From Lox Require Import Rang3.RangeModel Gen.MapOrder.

(* collect the entries in any order, then sort by an injective key: one result *)
Theorem C13_sort_of_perm :
  forall (K : Type) (cmp : K -> K -> comparison),
    (forall a b, cmp a b = Eq -> a = b) ->
    (forall a b, cmp a b = CompOpp (cmp b a)) ->
    (forall a b c, cmp a b = Lt -> cmp b c = Lt -> cmp a c = Lt) ->
    forall (E : Type) (key : E -> K) (l l' : list E),
      Permutation l l' -> NoDup (map key l) -> isort K cmp E key l = isort K cmp E key l'.
Proof. exact sort_of_perm. Qed.
Print Assumptions C13_sort_of_perm.

(* loops that only insert into sets / maps with distinct keys or set a flag *)
Theorem C13_fold_commutative_perm :
  forall (A S : Type) (f : A -> S -> S),
    (forall a b s, f a (f b s) = f b (f a s)) ->
    forall l l' s, Permutation l l' ->
      fold_left (fun acc a => f a acc) l s = fold_left (fun acc a => f a acc) l' s.
Proof. exact fold_commutative_perm. Qed.
Print Assumptions C13_fold_commutative_perm.

Theorem C13_fold_idempotent_set :
  forall (A S : Type) (f : A -> S -> S),
    (forall a b s, f a (f b s) = f b (f a s)) -> (forall a s, f a (f a s) = f a s) ->
    forall l l' s, (forall x, In x l <-> In x l') -> fold_right f s l = fold_right f s l'.
Proof. exact fold_idempotent_set. Qed.
Print Assumptions C13_fold_idempotent_set.

(* normalizeInputs collects the ranges of a map and hands them to Normalize:
   the callback sequence does not depend on the order *)
Theorem C13_normalize_perm : forall l l', Permutation l l' -> normalize l = normalize l'.
Proof. exact normalize_perm. Qed.
Print Assumptions C13_normalize_perm.
