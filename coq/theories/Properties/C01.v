(* C01 — the generated parser accepts exactly the language of the grammar.
   Statements only.  [parse] (Parse/ParseRuntime.v) is the exact model of the
   generated parse() over the emitted integer arrays; [validate]
   (Parse/Validator.v) is the boolean check that the harness runs on the arrays
   of every generated and every shipped grammar.  rec_enabled = false is the
   "without running any @error production" reading: a parse that never needs
   recovery (C09_clean_run_agrees relates it to the parser with recovery). *)
From Coq Require Import List.
From Lox Require Import Parse.Grammar Parse.Tables Parse.ParseRuntime Parse.Validator
  Parse.Refine Parse.Complete Parse.Sound Parse.TermCheck Parse.TermProofs
  Gen.NormalizeModel Gen.NormalizeProofs.
Import ListNotations.

Theorem C01_parse_exact :
  forall (g : grammar) (tb : tables) (c : cert) (nterm : nat) (eb : bool) (discard : value -> bool),
    validate g tb c nterm = true ->
    forall w : list nat, ordinary nterm w ->
      (exists (fuel : nat) (s : pstate), parse tb eb false discard fuel (zs w) = Accept s) <->
      sentence g (tokens_of w).
Proof. exact parse_exact. Qed.
Print Assumptions C01_parse_exact.

(* no sentence is rejected *)
Theorem C01_parse_complete :
  forall g tb c nterm eb discard, validate g tb c nterm = true ->
    forall w, ordinary nterm w -> sentence g (tokens_of w) ->
      exists fuel s, parse tb eb false discard fuel (zs w) = Accept s.
Proof. exact parse_complete. Qed.
Print Assumptions C01_parse_complete.

(* no non-sentence is accepted *)
Theorem C01_parse_sound :
  forall g tb c nterm eb discard, validate g tb c nterm = true ->
    forall w fuel s, ordinary nterm w ->
      parse tb eb false discard fuel (zs w) = Accept s -> sentence g (tokens_of w).
Proof. exact parse_sound. Qed.
Print Assumptions C01_parse_sound.

(* none of the Go panics that Crash stands for (see ParseRuntime.v) happens *)
Theorem C01_parse_no_crash :
  forall g tb c nterm eb discard, validate g tb c nterm = true ->
    forall w fuel, ordinary nterm w -> parse tb eb false discard fuel (zs w) <> Crash.
Proof. exact parse_no_crash. Qed.
Print Assumptions C01_parse_no_crash.

(* "exists fuel" is meaningful: an accepting run stays accepting with more fuel *)
Theorem C01_parse_fuel_monotone :
  forall tb eb discard w f1 f2 s, f1 <= f2 ->
    parse tb eb false discard f1 (zs w) = Accept s -> parse tb eb false discard f2 (zs w) = Accept s.
Proof. exact parse_fuel_monotone. Qed.
Print Assumptions C01_parse_fuel_monotone.

(* Cardinality sugar and @list "read as documented".
   Gen/NormalizeModel.normalize mirrors the Normalize pass (which helper rules
   and productions it creates, in which order); the harness compares it with
   lox's own production list on every generated grammar.  The documented meaning
   is the inductive [ssentence] over the SUGARED grammar (x? = zero or one,
   x* / x*! = zero or more, x+ = one or more, @list(e,s) = e (s e)*,
   @list(e,s)? = that or nothing).  Together with C01_parse_exact (stated over
   the plain grammar) this gives: parse succeeds cleanly iff the word is a
   sentence of the grammar as the user wrote it. *)
Theorem C01_normalize_sound : forall g w,
  wf_sgrammar g -> sentence (fst (normalize g)) w -> ssentence g w.
Proof. exact normalize_sound. Qed.
Print Assumptions C01_normalize_sound.

Theorem C01_normalize_complete : forall g w,
  wf_sgrammar g -> ssentence g w -> sentence (fst (normalize g)) w.
Proof. exact normalize_complete. Qed.
Print Assumptions C01_normalize_complete.

(* each helper has exactly the two productions of its kind, at the numbers the
   generated code uses *)
Theorem C01_helper_shapes : forall g j k,
  wf_sgrammar g -> nth_error (collect g) j = Some k ->
  let n := length (sg_rules g) in
  let h := n + 1 + j in
  let p1 := 1 + nuser g + 2 * j in
  let G := fst (normalize g) in
  nth_error (snd (normalize g)) j = Some (h, key_kind k) /\
  exists r1 r2,
    nth_error G p1 = Some {| lhs := h; rhs := r1 |} /\
    nth_error G (S p1) = Some {| lhs := h; rhs := r2 |} /\
    (forall p pr, nth_error G p = Some pr -> lhs pr = h -> p = p1 \/ p = S p1) /\
    shape n (collect g) h k r1 r2.
Proof. exact helper_shapes. Qed.
Print Assumptions C01_helper_shapes.

(* parse() decides membership.
   With the boolean termination condition term_ok (Parse/TermCheck.v, evaluated
   by the harness on every emitted table set) there is a fuel for which the
   model of parse() returns: it accepts exactly the sentences and rejects
   exactly the non-sentences; no input makes it run for ever. *)
Theorem C01_parse_decides :
  forall g tb c nterm eb discard F,
    validate g tb c nterm = true ->
    term_ok tb (nstates c) F = true ->
    forall w, ordinary nterm w ->
      exists fuel,
        (exists s, parse tb eb false discard fuel (zs w) = Accept s /\ sentence g (tokens_of w)) \/
        (exists s, parse tb eb false discard fuel (zs w) = Reject s /\ ~ sentence g (tokens_of w)).
Proof. exact parse_decides. Qed.
Print Assumptions C01_parse_decides.
