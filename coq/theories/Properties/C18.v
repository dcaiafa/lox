(* C18 — generated parsers and lexers are safe to run concurrently: the logic.
   Statements only.  Instances have their own state and share only immutable
   tables (static obligation checked on every generated file); under any
   schedule each instance ends where it ends when run alone.  The Go memory
   model itself is outside Coq: data races are explored with the race detector. *)
From Coq Require Import List Arith.
From Lox Require Import Gen.Sched.

Theorem C18_schedule_independence :
  forall (T S : Type) (step_t : T -> S -> S) (tables : T) (sched : list nat) (sts : list S) (i : nat) (d : S),
    i < length sts ->
    nth i (run_sched T S step_t tables sched sts) d =
    Nat.iter (count_occ Nat.eq_dec sched i) (step T S step_t tables) (nth i sts d).
Proof. exact schedule_independence. Qed.
Print Assumptions C18_schedule_independence.

Theorem C18_concurrent_equals_sequential :
  forall (T S : Type) (step_t : T -> S -> S) (tables : T) (sched ks : list nat) (sts : list S),
    length ks = length sts ->
    (forall i, i < length sts -> count_occ Nat.eq_dec sched i = nth i ks 0) ->
    run_sched T S step_t tables sched sts = run_sched T S step_t tables (seq_sched 0 ks) sts.
Proof. exact concurrent_equals_sequential. Qed.
Print Assumptions C18_concurrent_equals_sequential.
