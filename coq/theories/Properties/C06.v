(* C06 — type-matched action binding: exact verdict, values flow.  Statements
   only.  [assign_actions] (Gen/Binding.v) mirrors codegen.AssignActions over an
   oracle for go/types (identity, assignability, slices, interfaces), which is
   computed with go/types by the harness for every generated package. *)
From Coq Require Import List.
From Lox Require Import Gen.Binding Gen.BindingProofs Gen.BindingVerdict Gen.BindingComplete.
Import ListNotations.

Theorem C06_binding_verdict_exact :
  forall o tok err rules prods ms,
    wf_input rules prods ms = true ->
    (forall a, identical o a a = true) ->
    (forall a b, identical o a b = true -> identical o b a = true) ->
    (forall a b c, identical o a b = true -> identical o b c = true -> identical o a c = true) ->
    shape_ok rules prods ms ->
    ((exists b rtl, assign_actions o tok err rules prods ms = BOk b rtl) <->
     binding_ok o tok err rules prods ms).
Proof. exact binding_verdict_exact. Qed.
Print Assumptions C06_binding_verdict_exact.

Theorem C06_diagnostic_names_culprit :
  forall o tok err rules prods ms ds,
    assign_actions o tok err rules prods ms = BErr ds ->
    ds <> [] /\ (forall d, In d ds -> culprit_ok o tok err rules prods ms d).
Proof. exact diagnostic_names_culprit. Qed.
Print Assumptions C06_diagnostic_names_culprit.

(* values flow: casting to a type identical to the value's, or to an interface
   it implements, delivers it (two cases of C06_cast_to_term_type_delivers below) *)
Theorem C06_cast_delivers_when_identical :
  forall o T t x, is_interface o T = false -> identical o t T = true -> cast o T (DVal t x) = DVal t x.
Proof. exact cast_delivers_when_identical. Qed.
Print Assumptions C06_cast_delivers_when_identical.
Theorem C06_cast_interface_delivers :
  forall o T t x, is_interface o T = true -> implements o t T = true -> cast o T (DVal t x) = DVal t x.
Proof. exact cast_interface_delivers. Qed.
Print Assumptions C06_cast_interface_delivers.

(* values flow: for every accepted binding, every action parameter holds exactly
   the value produced for its term (the template asserts the TERM's type and
   lets the call convert) *)
Theorem C06_values_flow :
  forall o tok err rules prods ms b rtl,
    assign_actions o tok err rules prods ms = BOk b rtl ->
    forall pi p, nth_error prods pi = Some p -> kind_of rules (bp_rule p) = NotGenerated ->
      exists m, In m ms /\ In (pi, m_id m) b /\ accepts o tok err rtl m p /\
        (forall vs, Forall2 (produced_for o tok err rtl) (bp_terms p) vs ->
           length vs = length (m_params m) /\ action_args o tok err rtl (bp_terms p) vs = vs).
Proof. exact values_flow. Qed.
Print Assumptions C06_values_flow.

(* defect D6: the template before commit 156a4e1 (param_value_old) asserted the
   PARAMETER type: a term type that is assignable but not identical to a
   non-interface parameter type yielded the zero value *)
Theorem C06_cast_zero_refuted :
  assign_actions ex_o 10 11 ex_rules ex_prods [ex_on_s; ex_on_x] =
    BOk [(1, 0); (2, 1)] [(1, 0); (2, 0); (3, 1)] /\
  assignable ex_o 1 (nth 0 (m_params ex_on_s) 0) = true /\
  is_interface ex_o 2 = false /\ identical ex_o 1 2 = false /\
  (forall x, param_value_old ex_o ex_on_s 0 (DVal 1 x) = DZero 2) /\
  (forall x, param_value ex_o 1 (DVal 1 x) = DVal 1 x) /\
  (forall x, action_args ex_o 10 11 [(1, 0); (2, 0); (3, 1)] [(false, 3)] [DVal 1 x] = [DVal 1 x]).
Proof. exact cast_zero_refuted. Qed.
Print Assumptions C06_cast_zero_refuted.
(* casting to the static type a value was produced at gives the value back *)
Theorem C06_cast_to_term_type_delivers :
  forall o S v, wf_dyn o v -> has_static_type o S v = true -> cast o S v = v.
Proof. exact cast_to_term_type_delivers. Qed.
Print Assumptions C06_cast_to_term_type_delivers.
