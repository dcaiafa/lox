(* C16 — _onBounds reports the first and last token of every non-empty
   reduction.  Statements only. *)
From Coq Require Import List.
From Lox Require Import Parse.Grammar Parse.ParseRuntime Parse.Validator Parse.Actions
  Parse.Refine Parse.Bounds Parse.BoundsErase.
Import ListNotations.

(* With _onBounds defined, the complete event trace of a clean parse of tree t
   is [events t]: post-order, one ERed per node and, immediately after it, one
   EBounds carrying the action's result and the first and last token of the
   node's yield, if and only if that yield is non-empty (user-written and
   generated nodes alike). *)
Theorem C16_bounds_are_first_last :
  forall g tb c nterm discard, validate g tb c nterm = true ->
    forall w X t, ordinary nterm w -> start_sym g = Some X -> wt g X t (tokens_of w) ->
      exists fuel s top bot,
        parse tb true false discard fuel (zs w) = Accept s /\
        stack s = [top; bot] /\
        i_sym top = eval tb discard t /\
        i_bounds top = tree_bounds t /\
        rev (trace s) = events tb discard t.
Proof. exact bounds_are_first_last. Qed.
Print Assumptions C16_bounds_are_first_last.

Theorem C16_no_call_on_empty :
  forall tb discard t, yield t = [] ->
    forall res b e, ~ In (EBounds res b e) (events tb discard t).
Proof. exact no_call_on_empty. Qed.
Print Assumptions C16_no_call_on_empty.

Theorem C16_bounds_event_node :
  forall tb discard t res b e, In (EBounds res b e) (events tb discard t) ->
    exists t', In t' (LRAbstract.reds t) /\ res = eval tb discard t' /\
      exists x u, yield t' = x :: u /\ b = tok_val x /\ e = tok_val (last (x :: u) x).
Proof. exact bounds_event_node. Qed.
Print Assumptions C16_bounds_event_node.

(* its presence changes nothing else: for ALL tables, all inputs (ERROR tokens
   included), with and without recovery, erasing the bounds bookkeeping from
   the run with _onBounds gives exactly the run without it *)
Theorem C16_bounds_erasure :
  forall tb discard rec fuel w,
    erase_outcome (parse tb true rec discard fuel w) = parse tb false rec discard fuel w.
Proof. exact bounds_erasure_exact. Qed.
Print Assumptions C16_bounds_erasure.
