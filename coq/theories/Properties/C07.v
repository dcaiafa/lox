(* C07 — lexer modes form a stack; every action on a rule takes effect.  Statements only. *)
From Coq Require Import List ZArith.
From Lox Require Import Lex.LexRuntime Lex.LexAuto Lex.ModeProofs.
Import ListNotations.
Open Scope Z_scope.

(* When the terminal action (accept / discard / accumulate) is the last pair of
   a row — checked on every emitted row (mode_terminal_last) — the action loop
   applies ALL mode actions of the row, in order, and then performs the
   terminal action: nothing written on a rule is lost, in whatever order it was
   written.  (apply_modes is the plain stack semantics: push saves the current
   mode, pop restores the saved one.) *)
Theorem C07_actions_all_effective :
  forall (nmodes : nat) (S : Type) (start : nat -> S) (acts : list (Z * Z)) (l : gsm S),
    terminal_last acts = true ->
    match apply_modes nmodes acts (g_mode l, g_stack l) with
    | Some (m', st') =>
      g_actions S start nmodes acts l =
      match first_terminal acts with
      | Some (ty, p1) =>
        GReturn S (term_code ty)
          (at_start S start
             {| g_token := g_token l; g_state := g_state l; g_fresh := g_fresh l;
                g_accum := g_accum l; g_mode := m'; g_stack := st' |}
             (term_code ty) (if ty =? 3 then p1 else g_token l))
      | None =>
        GFall S {| g_token := g_token l; g_state := g_state l; g_fresh := g_fresh l;
                   g_accum := g_accum l; g_mode := m'; g_stack := st' |}
      end
    | None =>
      g_actions S start nmodes acts l = GCrash S \/
      (exists l', g_actions S start nmodes acts l = GReturn S lexError l')
    end.
Proof. exact actions_all_effective. Qed.
Print Assumptions C07_actions_all_effective.

(* after a pop the lexer is in the mode that was current before the matching
   push, for arbitrary nesting and re-entry in between *)
Theorem C07_push_pop_restores :
  forall (nmodes : nat) (p q : Z) (mid : list (Z * Z)) (m : nat) (st : list nat) (r : nat * list nat),
    balanced mid ->
    apply_modes nmodes ((1, p) :: mid ++ [(2, q)]) (m, st) = Some r -> r = (m, st).
Proof. exact push_pop_restores. Qed.
Print Assumptions C07_push_pop_restores.

Theorem C07_balanced_restores :
  forall (nmodes : nat) (a : list (Z * Z)), balanced a ->
    forall ms r, apply_modes nmodes a ms = Some r -> r = ms.
Proof. exact balanced_restores. Qed.
Print Assumptions C07_balanced_restores.
