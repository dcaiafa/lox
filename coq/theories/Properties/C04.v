(* C04 — conflicts are reported exactly when the grammar is not LALR(1).
   The global statement (lox's automaton = the LALR(1) automaton) is decided
   per grammar by comparing the dumped automaton with the reference
   construction Gen/LALRRef.lalr_ref; proved here for all grammars: the
   reference's ingredients and the conflict-resolution rule.  Predicates of the
   statements defined outside the model files: [sr_cell] (ResolveProofs),
   [productive] (FirstProofs), [lr1_closure], [mapped] (LALRProofs). *)
From Coq Require Import List.
From Lox Require Import Parse.Grammar Gen.FirstModel Gen.FirstProofs Gen.ResolveModel Gen.ResolveProofs
  Gen.LALRRef Gen.LALRProofs.
Import ListNotations.

(* precedence settles only shift/reduce conflicts among productions of one
   rule that all carry explicit qualifiers, keeping one of the two actions:
   reduce/reduce conflicts and conflicts spanning rules are never hidden *)
Theorem C04_resolve_only_sr_same_rule :
  forall prec assoc_right rule_of cell r,
    resolve prec assoc_right rule_of cell = Some r ->
    exists tgt sp p,
      sr_cell cell tgt sp p /\ sp <> [] /\
      (forall q, In q sp -> rule_of q = rule_of p) /\
      (forall q q', In q sp -> In q' sp -> prec q = prec q') /\
      (forall q, In q sp -> 0 < prec q) /\ 0 < prec p /\
      (r = [CShift tgt sp] \/ r = [CReduce p]).
Proof. exact resolve_only_sr_same_rule. Qed.
Print Assumptions C04_resolve_only_sr_same_rule.

(* FIRST of the reference is the real FIRST: complete for every grammar, sound
   for grammars whose rules all derive something *)
Theorem C04_first_spec_complete :
  forall g n tr u, wt g (NT n) tr u ->
    (u = [] -> nullable_spec g n = true) /\
    (forall a i u', u = (a, i) :: u' -> In a (first_spec g n)).
Proof. exact first_spec_complete. Qed.
Print Assumptions C04_first_spec_complete.

Theorem C04_first_spec_sound :
  forall g n, productive g ->
    (forall t, In t (first_spec g n) -> exists tr i u, wt g (NT n) tr ((t, i) :: u)) /\
    (nullable_spec g n = true -> exists tr, wt g (NT n) tr []).
Proof. exact first_spec_sound. Qed.
Print Assumptions C04_first_spec_sound.

(* the reference closure is exactly the textbook LR(1) closure rule *)
Theorem C04_closure_ref_iff :
  forall tab g I C, closure_ref tab g I = Some C -> forall x, In x C <-> lr1_closure tab g I x.
Proof. exact closure_ref_iff. Qed.
Print Assumptions C04_closure_ref_iff.

(* merging by LR(0) core: one merged state per core, whose items all come from
   canonical states with that core, and which contains every canonical state
   mapped to it; together (LALRProofs.merge_union) it is their union *)
Theorem C04_merge_preserves_core :
  forall states ms cmap, merge_states states = (ms, cmap) ->
    NoDup (map fst ms) /\
    (forall c J, In (c, J) ms -> forall p d, In (p, d) c <-> exists a, In (p, d, a) J) /\
    (forall c J x, In (c, J) ms -> In x J -> exists St, In St states /\ core_of St = c /\ In x St) /\
    Forall2 (mapped ms) states cmap.
Proof. exact merge_preserves_core. Qed.
Print Assumptions C04_merge_preserves_core.

(* lr1.First as it stood before /repo commit 22ac39a lost lookaheads (one
   visited set shared by a whole call): shown on [first_go], its Gallina mirror.
   The commit replaced it by a least fixed point, ruleFirstSets, which has no
   mirror and is compared with [first_spec] per run. *)
Theorem C04_first_go_refuted :
  first_go g_d1 [NT 3; T 2; T 0] = [Some 2] /\ first_seq_spec g_d1 [NT 3; T 2] 0 = [2; 4].
Proof. exact (conj (proj1 first_go_refuted) (proj1 (proj2 first_go_refuted))). Qed.
Print Assumptions C04_first_go_refuted.
