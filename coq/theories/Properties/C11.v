(* C11 — lexing always reaches EOF and accounts for every character.
   Statements only.  [lex_tables] is the exact model of the generated state
   machine under simplelexer.ReadToken; an input is a list of (code point,
   byte width) as the driver's rune reader delivers them. *)
From Coq Require Import List ZArith.
From Lox Require Import Lex.LexRuntime Lex.LexAuto Lex.LexTotalProofs Lex.Utf8Model Lex.Utf8Lex.
Import ListNotations.
Open Scope Z_scope.

(* for every structurally well-formed table set and every input, reading tokens
   reaches EOF within 3*|input|+1 ReadToken calls, none of them making more
   than that many PushRune calls (lex_all hands its fuel on to read_token) *)
Theorem C11_lex_total :
  forall modes, modes_wf modes = true ->
    forall inp, (forall r w, In (r, w) inp -> 0 <= r) ->
      exists segs, lex_tables modes (3 * length inp + 1) inp = LDone segs.
Proof. exact lex_total. Qed.
Print Assumptions C11_lex_total.

(* ... and never panics *)
Theorem C11_lex_no_crash :
  forall modes, modes_wf modes = true -> forall fuel inp, lex_tables modes fuel inp <> LCrash.
Proof. exact lex_no_crash. Qed.
Print Assumptions C11_lex_no_crash.

(* every byte before EOF lies in exactly one emitted token, one discarded
   stretch or one error stretch, in order: the segments tile [0, total width)
   and the final EOF segment is empty — for ANY tables *)
Theorem C11_lex_exact_tiling :
  forall modes fuel inp segs,
    (forall r w, In (r, w) inp -> 0 <= r) ->
    lex_tables modes fuel inp = LDone segs ->
    exists pre, segs = pre ++ [SegEOF (total_width inp) (total_width inp)] /\
                Forall noneof pre /\ tiles 0 pre (total_width inp).
Proof. exact lex_exact_tiling_any. Qed.
Print Assumptions C11_lex_exact_tiling.

Theorem C11_lex_no_loss :
  forall modes fuel inp segs, lex_tables modes fuel inp = LDone segs ->
    forall b e, In (SegEOF b e) segs -> b = e.
Proof. exact lex_no_loss_any. Qed.
Print Assumptions C11_lex_no_loss.

(* over raw bytes (valid, invalid or truncated UTF-8): [lex_bytes] decodes
   with the mirror of utf8.DecodeRune and runs the tables *)
Theorem C11_lex_bytes_total : forall modes bs, modes_wf modes = true ->
  exists segs, lex_bytes modes (3 * length (decode_all bs) + 1) bs = LDone segs.
Proof. exact lex_bytes_total. Qed.
Print Assumptions C11_lex_bytes_total.

(* every BYTE lies in exactly one token, discarded stretch or error stretch *)
Theorem C11_lex_bytes_tiling : forall modes fuel bs segs,
  lex_bytes modes fuel bs = LDone segs ->
  let n := Z.of_nat (length bs) in
  exists pre, segs = pre ++ [SegEOF n n] /\ Forall noneof pre /\ tiles 0 pre n.
Proof. exact lex_bytes_tiling. Qed.
Print Assumptions C11_lex_bytes_tiling.
