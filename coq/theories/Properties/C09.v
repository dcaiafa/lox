(* C09 — syntax errors: never panic, never accept silently, blame the right
   token.  Statements only; rec_enabled = true is the generated parser as it
   ships.  Termination is proved (C09_parse_terminates) for every table set
   that passes the validator and the boolean termination condition term_ok
   (Parse/TermCheck.v), which the harness evaluates on every emitted table. *)
From Coq Require Import List ZArith.
From Lox Require Import Parse.Grammar Parse.ParseRuntime Parse.Validator
  Parse.RuntimeFacts Parse.Refine Parse.Recovery Parse.RecoverySound Parse.RecoveryBlame
  Parse.RecoveryProgress Parse.TermCheck Parse.TermProofs.
Import ListNotations.

(* no panic, for every validated table set and every token sequence, lexer ERROR tokens included *)
Theorem C09_parse_never_crashes :
  forall g tb c nterm eb discard, validate g tb c nterm = true ->
    forall w fuel, tokens1 nterm w -> parse tb eb true discard fuel (zs w) <> Crash.
Proof. exact parse_never_crashes. Qed.
Print Assumptions C09_parse_never_crashes.

(* when parse() returns true, the symbols it kept (input tokens in order, with
   stretches replaced by @error) form a sentence *)
Theorem C09_accept_is_sentence_with_errors :
  forall g tb c nterm eb discard, validate g tb c nterm = true ->
    forall w fuel s, tokens1 nterm w -> parse tb eb true discard fuel (zs w) = Accept s ->
      exists u X t toks, err_subst w u /\ start_sym g = Some X /\ wt g X t toks /\ map fst toks = u.
Proof. exact accept_is_sentence_with_errors. Qed.
Print Assumptions C09_accept_is_sentence_with_errors.

(* a non-sentence is rejected, or an @error production was reduced *)
Theorem C09_nonsentence_reports :
  forall g tb c nterm eb discard, validate g tb c nterm = true ->
    start_sym g <> Some (T error_t) ->
    forall w fuel s, ordinary nterm w -> parse tb eb true discard fuel (zs w) = Accept s ->
      (exists p pr res, In (ERed (Z.of_nat p) res) (trace s) /\ nth_error g p = Some pr /\ In (T error_t) (rhs pr))
      \/ sentence g (tokens_of w).
Proof. exact nonsentence_reports. Qed.
Print Assumptions C09_nonsentence_reports.

(* the token at which the first error is detected really is one at which the
   input stops being a prefix of a sentence ... *)
Theorem C09_blame_not_viable :
  forall g tb c nterm eb discard, validate g tb c nterm = true ->
    forall w fuel s, ordinary nterm w -> parse tb eb false discard fuel (zs w) = Reject s ->
      (la s <> 0%Z -> ~ viable_prefix g (firstn (pos s) w)) /\
      (la s = 0%Z -> ~ sentence g (tokens_of w)).
Proof. exact blame_not_viable. Qed.
Print Assumptions C09_blame_not_viable.

(* ... the recovering parser replays the clean run up to that point, calls
   _recover there, and the Error built carries exactly that lookahead token *)
Theorem C09_first_error_is_blame :
  forall g tb c nterm eb discard, validate g tb c nterm = true ->
    forall w fuel s, ordinary nterm w -> parse tb eb false discard fuel (zs w) = Reject s ->
      (exists n, forall k,
         parse tb eb true discard (n + S k) (zs w) =
         match recover tb (S k) s with
         | Continue s' => ploop tb eb true discard k s'
         | Accept s0 => Accept s0 | Reject s0 => Reject s0 | Crash => Crash | Fuel => Fuel
         end) /\
      (exists id ks, lasym s = VTok (la s) id /\ recover_errsym tb s = Some (VErr (VTok (la s) id) ks)) /\
      (* nothing is dropped by the progress rule at the first recovery of a run *)
      rec_shifts s = (-1)%Z /\ (0 <= shifts s)%Z /\
      (forall f, recover tb f s =
         match recover_errsym tb s with
         | Some e => match skip_errors tb f s with
                     | Continue s1 => recover_outer tb f e s1
                     | Accept s0 => Accept s0 | Reject s0 => Reject s0 | Crash => Crash | Fuel => Fuel
                     end
         | None => Crash
         end).
Proof. exact first_error_is_blame. Qed.
Print Assumptions C09_first_error_is_blame.

(* the Error handed on by _recover is the one of this detection, or an earlier
   Error that was still waiting on the stack (beginning of the replaced stretch) *)
Theorem C09_recover_reports :
  forall tb f s s1, recover tb f s = Continue s1 ->
    exists e0, recover_errsym tb s = Some e0 /\ la s1 = ERROR /\
      (lasym s1 = e0 \/ exists it, In it (stack s) /\ i_sym it = lasym s1 /\ is_verr (lasym s1)).
Proof. exact recover_reports. Qed.
Print Assumptions C09_recover_reports.

(* a parse that needs no recovery is the same with recovery enabled *)
Theorem C09_clean_run_agrees :
  forall tb eb discard w fuel s,
    parse tb eb false discard fuel (zs w) = Accept s -> parse tb eb true discard fuel (zs w) = Accept s.
Proof. exact clean_run_agrees. Qed.
Print Assumptions C09_clean_run_agrees.

(* outcomes are stable under more fuel: "returns" is well defined *)
Theorem C09_parse_fuel_monotone :
  forall tb eb discard rec f1 f2 zw o, f1 <= f2 -> o <> Fuel ->
    parse tb eb rec discard f1 zw = o -> parse tb eb rec discard f2 zw = o.
Proof. exact parse_fuel_monotone_rec. Qed.
Print Assumptions C09_parse_fuel_monotone.

(* error recovery makes progress: along a run on w the parser enters _recover at
   most 2*|w|+2 times (each recovery is preceded by a real shift or drops a
   token).  Together with finiteness of reduction chains under one lookahead
   (C09_reduce_chain_bounded) this is termination. *)
Theorem C09_recoveries_make_progress :
  forall g tb c nterm eb discard, validate g tb c nterm = true ->
    forall w, tokens1 nterm w -> forall fuel s0,
      read_token tb (init_state (zs w)) = Some s0 ->
      nrec tb eb discard fuel s0 <= 2 * length w + 2.
Proof. exact recoveries_make_progress. Qed.
Print Assumptions C09_recoveries_make_progress.

(* every run terminates, with or without error recovery, on every token
   sequence (lexer ERROR tokens included): for tables that pass the validator
   and term_ok there is a fuel for which the model of parse() returns; by
   C09_parse_fuel_monotone the answer is then the same for every larger fuel *)
Theorem C09_parse_terminates :
  forall g tb c nterm eb discard F,
    validate g tb c nterm = true ->
    term_ok tb (nstates c) F = true ->
    forall rec w, tokens1 nterm w ->
      exists fuel, parse tb eb rec discard fuel (zs w) <> Fuel.
Proof. exact parse_terminates. Qed.
Print Assumptions C09_parse_terminates.

(* the bound behind it: between two shifts the parser makes fewer than
   height * (F+1) reductions *)
Theorem C09_reduce_chain_bounded :
  forall g tb c nterm eb rec discard F,
    validate g tb c nterm = true -> term_ok tb (nstates c) F = true ->
    forall s n s', zpath g tb c (map i_state (stack s)) ->
      reduce_run tb eb discard rec n s s' -> n < length (stack s) * (F + 1).
Proof. exact reduce_chain_bounded. Qed.
Print Assumptions C09_reduce_chain_bounded.

(* term_ok is not vacuous: it holds of a real table set and fails on tables with a reduce cycle *)
Theorem C09_term_ok_examples :
  term_ok tb_small (nstates c_small) (term_fuel tb_small (nstates c_small)) = true /\
  term_ok tb_cycle 2 1000 = false.
Proof. split; vm_compute; reflexivity. Qed.
Print Assumptions C09_term_ok_examples.
