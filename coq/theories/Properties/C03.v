(* C03 — actions run as the unique bottom-up derivation; sugar yields the
   documented values.  Statements only. *)
From Coq Require Import List ZArith.
From Lox Require Import Parse.Grammar Parse.Tables Parse.ParseRuntime Parse.Validator Parse.Actions
  Parse.Refine Parse.Complete Parse.Sugar.
Import ListNotations.

(* For every parse tree t of the input: the parser accepts, leaves eval t on
   its stack, and its _act calls are exactly the post-order of t (one per node,
   children first, left to right), each user action receiving the values of
   its children in production order (eval's definition + C03_user_value). *)
Theorem C03_reductions_are_postorder :
  forall g tb c nterm eb discard, validate g tb c nterm = true ->
    forall w X t, ordinary nterm w -> start_sym g = Some X -> wt g X t (tokens_of w) ->
      exists fuel s top bot,
        parse tb eb false discard fuel (zs w) = Accept s /\
        stack s = [top; bot] /\
        i_sym top = eval tb discard t /\
        filter (fun e => match e with ERed _ _ => true | EBounds _ _ _ => false end) (rev (trace s))
          = reductions tb discard t.
Proof. exact parse_complete_values. Qed.
Print Assumptions C03_reductions_are_postorder.

Theorem C03_tree_unique :
  forall g tb c nterm, validate g tb c nterm = true ->
    forall w X t1 t2, ordinary nterm w -> start_sym g = Some X ->
      wt g X t1 (tokens_of w) -> wt g X t2 (tokens_of w) -> t1 = t2.
Proof. exact tree_unique. Qed.
Print Assumptions C03_tree_unique.

Theorem C03_user_value :
  forall tb discard p ch, kind_of tb p = KUser ->
    eval tb discard (Node p ch) = VNode (Z.of_nat p) (map (eval tb discard) ch).
Proof. exact user_value. Qed.
Print Assumptions C03_user_value.

(* x+ : every element, in input order *)
Theorem C03_plus_value :
  forall tb discard p1 p2 elems t, kind_of tb p1 = KOneOrMore -> kind_of tb p2 = KOneOrMore ->
    spine p1 p2 elems t -> eval tb discard t = VList (map (eval tb discard) elems).
Proof. exact plus_value. Qed.
Print Assumptions C03_plus_value.
Theorem C03_elements_in_input_order :
  forall p1 p2 elems t, spine p1 p2 elems t -> yield t = flat_map yield elems.
Proof. exact yield_of_spine. Qed.
Print Assumptions C03_elements_in_input_order.

(* x*! / x+! : the elements whose Discard() is false *)
Theorem C03_plus_f_value :
  forall tb discard p1 p2 elems t, kind_of tb p1 = KOneOrMoreF -> kind_of tb p2 = KOneOrMoreF ->
    spine p1 p2 elems t ->
    eval tb discard t = VList (filter (keep discard) (map (eval tb discard) elems)).
Proof. exact plus_f_value. Qed.
Print Assumptions C03_plus_f_value.

(* @list(x, sep) : the elements without the separators *)
Theorem C03_list_value :
  forall tb discard p1 p2 elems all t, kind_of tb p1 = KList -> kind_of tb p2 = KList ->
    spine_sep p1 p2 elems all t -> eval tb discard t = VList (map (eval tb discard) elems).
Proof. exact list_value. Qed.
Print Assumptions C03_list_value.

(* x? : the child's value or the zero value *)
Theorem C03_opt_value :
  forall tb discard p1 p2 e, kind_of tb p1 = KZeroOrOne -> kind_of tb p2 = KZeroOrOne ->
    eval tb discard (Node p1 [e]) = eval tb discard e /\ eval tb discard (Node p2 []) = VZero.
Proof. exact opt_value. Qed.
Print Assumptions C03_opt_value.

(* x* : the x+ list, or empty for none *)
Theorem C03_star_elems :
  forall tb discard p1 q1 q2 elems t, kind_of tb p1 = KZeroOrMore ->
    kind_of tb q1 = KOneOrMore -> kind_of tb q2 = KOneOrMore -> spine q1 q2 elems t ->
    as_list (eval tb discard (Node p1 [t])) = map (eval tb discard) elems.
Proof. exact star_elems. Qed.
Print Assumptions C03_star_elems.
Theorem C03_star_f_elems :
  forall tb discard p1 q1 q2 elems t, kind_of tb p1 = KZeroOrMore ->
    kind_of tb q1 = KOneOrMoreF -> kind_of tb q2 = KOneOrMoreF -> spine q1 q2 elems t ->
    as_list (eval tb discard (Node p1 [t])) = filter (keep discard) (map (eval tb discard) elems).
Proof. exact star_f_elems. Qed.
Print Assumptions C03_star_f_elems.
Theorem C03_star_empty :
  forall tb discard p2, kind_of tb p2 = KZeroOrMore -> as_list (eval tb discard (Node p2 [])) = [].
Proof. exact star_empty. Qed.
Print Assumptions C03_star_empty.
