(* C12 — the generator never crashes: the part of the property that is logic.
   "Front-end actions assume the lexer validated their input and panic
   otherwise" (internal/parser/parser.go unescape / hexToRune / fixLiteral):
   the model gives the Go failure an explicit result (UPanic / None), the
   recognisers of Gen/EscapeModel.v admit at least what the Literal and
   ClassChar modes of parser.lox produce, and no token they admit makes the
   actions panic.  Tie to the code, checked on every run: unescape is compared
   with parser.go on arbitrary byte strings (same panic verdict, same bytes),
   and every LITERAL / CLASS_CHAR token the real front-end lexer emits on
   shipped, generated and damaged sources must satisfy the recognisers.
   Everything else in C12 (go/packages, templates, go/format, files, the
   process) is outside any model and is explored with the real binary. *)
From Coq Require Import List ZArith.
From Lox Require Import Rang3.ClassModel Gen.EscapeModel Gen.EscapeProofs.
Import ListNotations.
Local Open Scope Z_scope.

(* every text the Literal mode admits between the quotes is decoded without a panic *)
Theorem C12_unescape_literal_ok : forall l, is_literal_body l = true -> exists items, unescape l = UOk items.
Proof. exact unescape_literal_ok. Qed.
Print Assumptions C12_unescape_literal_ok.

(* ... and so is a whole LITERAL token handed to fixLiteral (the slice lit[1:len-1] included) *)
Theorem C12_fix_literal_ok : forall t, is_literal_token t = true -> exists bs, fix_literal t = Some bs.
Proof. exact fix_literal_ok. Qed.
Print Assumptions C12_fix_literal_ok.

(* every CLASS_CHAR token is decoded without a panic and to at least one byte,
   so on_char_class's DecodeRuneInString never sees the empty string *)
Theorem C12_unescape_class_char_ok : forall l, is_class_char l = true ->
  exists items, unescape l = UOk items /\ items <> [].
Proof. exact unescape_class_char_ok. Qed.
Print Assumptions C12_unescape_class_char_ok.

(* text without a backslash is copied byte for byte *)
Theorem C12_unescape_plain_identity : forall l, (forall b, In b l -> b <> 92) ->
  unescape l = UOk (map (fun b => (false, b)) l).
Proof. exact unescape_plain_identity. Qed.
Print Assumptions C12_unescape_plain_identity.

(* A successful result has at most one item per input byte.  This is not "the
   fuel never runs out": that is UPanic in ClassModel.unescape_loop, the same
   value as a Go panic, and is excluded for the two token languages only, inside
   the three theorems above. *)
Theorem C12_unescape_fuel_enough : forall l items, unescape l = UOk items -> (length items <= length l)%nat.
Proof. exact unescape_fuel_enough. Qed.
Print Assumptions C12_unescape_fuel_enough.

(* the hypotheses are needed (outside the token languages unescape does panic) and satisfiable *)
Theorem C12_unescape_panic_witnesses :
  unescape [92; 113] = UPanic /\ unescape [92; 120; 52] = UPanic /\
  unescape [92; 117; 48; 48; 52; 103] = UPanic /\
  is_literal_body [92; 113] = false /\ is_class_char [92; 120; 52] = false.
Proof. exact unescape_panic_witnesses. Qed.
Print Assumptions C12_unescape_panic_witnesses.

Theorem C12_token_languages_nonvacuous :
  is_literal_body [97; 92; 110; 92; 120; 52; 49; 92; 117; 50; 48; 65; 67] = true /\
  is_class_char [92; 85; 48; 48; 48; 49; 70; 54; 48; 48] = true /\
  is_class_char [92] = true /\ is_literal_token [39; 92; 39; 39] = true.
Proof. exact literal_body_nonvacuous. Qed.
Print Assumptions C12_token_languages_nonvacuous.
