(* C08 — non-greedy repetitions stop at the first complete match.  Statements only. *)
From Coq Require Import List ZArith.
From Lox Require Import Lex.LexRuntime Lex.LexAuto Lex.RegexRef Lex.RegexProofs Lex.RegexProofs2
  Lex.RegexProofs3.
Import ListNotations.
Open Scope Z_scope.

(* as soon as a marked (non-greedy-shaped) rule matches the text read so far,
   the reference machine consumes nothing more, whatever comes next: it acts as
   the earliest rule matching that text *)
Theorem C08_ref_step_ng :
  forall (modes : list (list rule)) (m : nat) (u : list Z) (c : Z) (l : gsm (list re)) (acts : list (Z * Z)),
    in_state modes m l u -> ng_match (nth m modes []) u -> sel_acts (nth m modes []) u acts ->
    push modes l c = stuck_result modes acts l c.
Proof. exact ref_step_ng. Qed.
Print Assumptions C08_ref_step_ng.

(* until then it behaves greedily (the longest-match step of C02) *)
Theorem C08_ref_step_consume :
  forall (modes : list (list rule)) (m : nat) (u : list Z) (c : Z) (l : gsm (list re)),
    wf_rules (nth m modes []) -> in_state modes m l u -> ~ ng_match (nth m modes []) u ->
    in_unicode c -> viable (nth m modes []) (u ++ [c]) ->
    push modes l c =
      Some (lexConsume, {| g_token := g_token l; g_state := der (nth m modes []) (u ++ [c]);
                           g_fresh := false; g_accum := g_accum l; g_mode := m; g_stack := g_stack l |}).
Proof. exact ref_step_consume. Qed.
Print Assumptions C08_ref_step_consume.

(* the shortest match of prefix . body*? . terminator ends at the first
   occurrence of the terminator after the prefix, even when the body can match
   the terminator's own characters *)
Theorem C08_first_occurrence_is_shortest_match :
  forall P bs t n s u rest,
    fixed_len P n -> s = u ++ rest -> matches (ng_shape P bs (lit t)) u ->
    (forall u' rest', s = u' ++ rest' -> matches (ng_shape P bs (lit t)) u' -> (length u <= length u')%nat) ->
    exists p mid, u = p ++ mid ++ t /\ length p = n /\ matches P p /\ Forall (in_B bs) mid /\
      (forall p' mid' rest', s = p' ++ mid' ++ t ++ rest' -> length p' = n ->
         Forall (in_B bs) mid' -> (length mid <= length mid')%nat).
Proof. exact first_occurrence_is_shortest_match. Qed.
Print Assumptions C08_first_occurrence_is_shortest_match.

Theorem C08_ng_shape_suffix :
  forall P bs t u, matches (ng_shape P bs (lit t)) u -> exists pre, u = pre ++ t.
Proof. exact ng_shape_suffix. Qed.
Print Assumptions C08_ng_shape_suffix.
