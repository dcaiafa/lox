(* Soundness of the recovering parser (rec_enabled = true).
   Invariant on the concrete run: the stack is a path of the automaton whose
   trees are well-typed; the consumed input is err_subst-related to the yields
   on the stack (plus one pending @error while a recovered lookahead is queued);
   every node of a stack tree has its ERed event in the trace. *)
From Coq Require Import List ZArith Lia Bool.
From Lox Require Import Parse.Grammar Parse.Tables Parse.Validator
  Parse.LRAbstract Parse.ValidatorFacts Parse.ParseRuntime Parse.RuntimeFacts Parse.Refine Parse.Sound
  Parse.Recovery Parse.RecoveryFacts.
Import ListNotations.

Fixpoint nodes (t : tree) : list nat :=
  match t with
  | Leaf _ => []
  | Node p ch => p :: flat_map nodes ch
  end.

Definition snodes (stk : list (nat * tree)) : list nat := flat_map (fun e => nodes (snd e)) stk.
Definition ytypes (stk : list (nat * tree)) : list nat := map fst (syield stk).

Section Trees.
Variable g : grammar.

Lemma wt_relabel :
  (forall X t u, wt g X t u -> forall u', map fst u' = map fst u -> exists t', wt g X t' u') /\
  (forall Xs ts us, wf g Xs ts us -> forall us', map fst us' = map fst us -> exists ts', wf g Xs ts' us').
Proof.
  apply wt_wf_ind.
  - intros t i u' H. destruct u' as [|[t' j] [|? ?]]; simpl in H; try discriminate.
    inversion H; subst. exists (Leaf (t, j)). constructor.
  - intros p pr ch u Hp Hwf IH u' H. destruct (IH u' H) as (ts' & Hts).
    exists (Node p ts'). econstructor; eauto.
  - intros us' H. destruct us'; [|discriminate]. exists []. constructor.
  - intros X t u Xs ts us Ht IHt Hf IHf us' H. rewrite map_app in H.
    apply map_eq_app in H as (l1 & l2 & -> & H1 & H2).
    destruct (IHt _ H1) as (t' & Ht'). destruct (IHf _ H2) as (ts' & Hts').
    exists (t' :: ts'). constructor; auto.
Qed.

Lemma err_leaf_node :
  (forall X t u, wt g X t u -> In error_t (map fst u) ->
     X = T error_t \/
     exists p pr, In p (nodes t) /\ nth_error g p = Some pr /\ In (T error_t) (rhs pr)) /\
  (forall Xs ts us, wf g Xs ts us -> In error_t (map fst us) ->
     In (T error_t) Xs \/
     exists p pr, In p (flat_map nodes ts) /\ nth_error g p = Some pr /\ In (T error_t) (rhs pr)).
Proof.
  apply wt_wf_ind.
  - intros t i H. simpl in H. destruct H as [H|[]]. left. rewrite H. reflexivity.
  - intros p pr ch u Hp Hwf IH H. right.
    destruct (IH H) as [Hin|(q & qr & Hq & Hqr & Hin)].
    + exists p, pr. simpl. auto.
    + exists q, qr. simpl. auto.
  - intros [].
  - intros X t u Xs ts us Ht IHt Hf IHf H. rewrite map_app in H.
    apply in_app_or in H as [H|H].
    + destruct (IHt H) as [->|(q & qr & Hq & Hqr & Hin)].
      * left. left. reflexivity.
      * right. exists q, qr. simpl. split; [apply in_or_app; left; exact Hq|auto].
    + destruct (IHf H) as [Hin|(q & qr & Hq & Hqr & Hin)].
      * left. right. exact Hin.
      * right. exists q, qr. simpl. split; [apply in_or_app; right; exact Hq|auto].
Qed.

End Trees.

Lemma pop_nodes (P : nat -> Prop) n : forall (stk : list (nat * tree)) ch rest,
  LRAbstract.pop n stk = Some (ch, rest) -> Forall P (snodes stk) ->
  Forall P (flat_map nodes ch) /\ Forall P (snodes rest).
Proof.
  induction n as [|n IH]; intros stk ch rest H HP; simpl in H.
  - inversion H; subst. split; [constructor|exact HP].
  - destruct stk as [|[s t] stk]; [discriminate|].
    destruct (LRAbstract.pop n stk) as [[ts r]|] eqn:E; [|discriminate].
    inversion H; subst. unfold snodes in HP. simpl in HP. apply Forall_app in HP as [HP1 HP2].
    destruct (IH _ _ _ E HP2) as [H1 H2]. split; auto.
    rewrite flat_map_app. apply Forall_app. split; auto. simpl. rewrite app_nil_r. exact HP1.
Qed.

Lemma syield_skipn n : forall stk, exists y, syield stk = syield (skipn n stk) ++ y.
Proof.
  induction n as [|n IH]; intros stk.
  - exists []. simpl. rewrite app_nil_r. reflexivity.
  - destruct stk as [|[s t] stk]; simpl.
    + exists []. reflexivity.
    + destruct (IH stk) as (y & Hy). exists (y ++ yield t). rewrite Hy at 1. rewrite app_assoc. reflexivity.
Qed.

Lemma snodes_skipn (P : nat -> Prop) n : forall stk, Forall P (snodes stk) -> Forall P (snodes (skipn n stk)).
Proof.
  induction n as [|n IH]; intros stk H; simpl; auto.
  destruct stk as [|[s t] stk]; auto.
  unfold snodes in H. simpl in H. apply Forall_app in H as [_ H]. apply IH. exact H.
Qed.

Lemma path_skipn g c n : forall stk, path g c stk -> path g c (skipn n stk).
Proof.
  induction n as [|n IH]; intros stk H; simpl; auto.
  destruct H; auto. constructor.
Qed.

Lemma tokens1_tl nterm l : tokens1 nterm l -> tokens1 nterm (tl l).
Proof. intros H. destruct l; simpl; auto. inversion H; auto. Qed.

Section Sound.
Variable g : grammar.
Variable tb : tables.
Variable c : cert.
Variable nterm : nat.
Variable eb : bool.
Variable discard : value -> bool.
Hypothesis Hval : validate g tb c nterm = true.

Notation nst := (nstates c).
Notation item s p d a := (has_item c s (p, d, a) = true).

Inductive srel : list sitem -> list (nat * tree) -> Prop :=
| srel_bot b : i_state b = 0%Z -> srel [b] []
| srel_cons it s t cs stk :
    i_state it = Z.of_nat s -> srel cs stk -> srel (it :: cs) ((s, t) :: stk).

Lemma srel_top cs stk : srel cs stk ->
  exists top, peek cs 0 = Some top /\ i_state top = Z.of_nat (topst stk).
Proof. intros H. destruct H; eexists; simpl; split; eauto. Qed.

Lemma srel_len cs stk : srel cs stk -> length cs = S (length stk).
Proof. induction 1; simpl; auto. Qed.

Lemma srel_skipn n : forall cs stk, srel cs stk -> n <= length stk ->
  srel (skipn n cs) (skipn n stk).
Proof.
  induction n as [|n IH]; intros cs stk H Hn; simpl; auto.
  destruct H; simpl in *; [lia|]. apply IH; auto. lia.
Qed.

Lemma srel_valid cs stk : srel cs stk -> path g c stk -> Forall (valid_item c) cs.
Proof.
  induction 1 as [b Hb|it s t cs stk Hs Hrel IH]; intros Hp.
  - constructor; [|constructor]. exists 0. split; auto. apply (val_nstates Hval).
  - inversion Hp; subst. constructor; auto. exists s. auto.
Qed.

Definition evented (tr : list event) (p : nat) : Prop := exists res, In (ERed (Z.of_nat p) res) tr.

Lemma evented_incl tr tr' p : incl tr tr' -> evented tr p -> evented tr' p.
Proof. intros Hi (res & H). exists res. auto. Qed.

(* wr: the input not yet consumed, starting with the real lookahead, which sits
   in la, or in qla while the parser works on a synthetic ERROR (C_regs) *)
Record Core (s : pstate) (stk : list (nat * tree)) (wr : list nat) : Prop := mkCore {
  C_stack : srel (stack s) stk;
  C_path : path g c stk;
  C_wr : tokens1 nterm wr;
  C_lasym : tokish (lasym s);
  C_regs : (qla s = (-1)%Z /\ la s = Z.of_nat (hd 0 wr) /\ input s = zs (tl wr)) \/
           (qla s = Z.of_nat (hd 0 wr) /\ la s = ERROR /\ tokish (qlasym s) /\ input s = zs (tl wr));
  C_trace : Forall (evented (trace s)) (snodes stk);
}.

Lemma core_top s stk wr : Core s stk wr ->
  exists top, peek (stack s) 0 = Some top /\ i_state top = Z.of_nat (topst stk) /\
              topst stk < nst /\ valid_item c top.
Proof.
  intros HC. destruct (srel_top _ _ (C_stack _ _ _ HC)) as (top & Hp & Ht).
  pose proof (path_top_lt g tb c nterm Hval _ (C_path _ _ _ HC)) as Hlt.
  exists top. repeat split; auto. exists (topst stk). auto.
Qed.

(* the @error that a queued lookahead announces: recovered, not yet shifted *)
Definition pend (s : pstate) : list nat := if (qla s =? -1)%Z then [] else [error_t].

(* d is what the read consumes: the real lookahead, unless it was queued *)
Lemma core_read s stk wr : Core s stk wr ->
  exists s' d wr', read_token tb s = Some s' /\ qla s' = (-1)%Z /\ wr = d ++ wr' /\ Core s' stk wr' /\
    (Z.to_nat (la s) <> eof -> pend s ++ d = [Z.to_nat (la s)]).
Proof.
  intros HC. destruct (core_top _ _ _ HC) as (top & Hp & Ht & Hlt & Hv).
  destruct HC as [Hst Hpath Hwr Hsym Hregs Htr]. unfold pend.
  destruct Hregs as [(Hq & Hla & Hin)|(Hq & Hla & Hqs & Hin)].
  - destruct (read_real g tb c nterm Hval s (tl wr) top Hq Hin Hp Hv)
      as (s' & Hrd & Hst' & Htr' & Hq' & _ & Hsym' & Hla' & Hin').
    exists s', (firstn 1 wr), (tl wr). rewrite Hq, Hla. repeat split; auto.
    + destruct wr; reflexivity.
    + rewrite Hst'. exact Hst.
    + apply tokens1_tl. exact Hwr.
    + rewrite Htr'. exact Htr.
    + destruct wr; simpl; [contradiction|]. rewrite Nat2Z.id. reflexivity.
  - assert (Hne : qla s <> (-1)%Z) by lia.
    rewrite (read_token_queued tb s Hne), (proj2 (Z.eqb_neq _ _) Hne), Hla.
    eexists _, [], wr. repeat split; cbn [set_la stack la lasym qla qlasym input trace]; auto.
Qed.

Lemma core_reads s s' : reads tb s s' -> forall stk wr, Core s stk wr ->
  (exists d wr1, wr = d ++ wr1 /\ Core s' stk wr1) /\ read_token tb s' <> None.
Proof.
  induction 1 as [s|s s1 s2 Hrd _ IH]; intros stk wr HC.
  - split; [exists [], wr; auto|]. destruct (core_read _ _ _ HC) as (s' & _ & _ & -> & _). discriminate.
  - destruct (core_read _ _ _ HC) as (s1' & d0 & wr0 & Hrd' & _ & -> & HC1 & _).
    rewrite Hrd in Hrd'. inversion Hrd'; subst s1'.
    destruct (IH _ _ HC1) as [(d & wr1 & -> & HC2) Hne]. split; auto.
    exists (d0 ++ d), wr1. rewrite <- app_assoc. auto.
Qed.

Lemma core_found s stk wr n e : Core s stk wr -> qla s = (-1)%Z -> tokish e -> n < length (stack s) ->
  Core (set_shifts (set_la (set_stack s (skipn n (stack s))) ERROR e (la s) (lasym s)) (shifts s) (shifts s))
       (skipn n stk) wr.
Proof.
  intros [Hst Hpath Hwr Hsym Hregs Htr] Hq He Hn. pose proof (srel_len _ _ Hst) as Hlen.
  destruct Hregs as [(_ & Hla & Hin)|(Hq2 & _)]; [|lia].
  constructor; cbn [set_shifts set_la set_stack stack la lasym qla qlasym input trace]; auto.
  - apply srel_skipn; auto. lia.
  - apply path_skipn. exact Hpath.
  - apply snodes_skipn. exact Htr.
Qed.

Section Word.
Variable w : list nat.
Hypothesis Hw1 : tokens1 nterm w.

Definition RInv (s : pstate) : Prop :=
  exists stk wc wr, w = wc ++ wr /\ Core s stk wr /\ err_subst wc (ytypes stk ++ pend s).

Definition Final (s : pstate) : Prop :=
  exists X t toks, start_sym g = Some X /\ wt g X t toks /\ err_subst w (map fst toks) /\
                   Forall (evented (trace s)) (nodes t).

Lemma inv_shift s stk wc wr v b :
  w = wc ++ wr -> Core s stk wr -> err_subst wc (ytypes stk ++ pend s) ->
  (0 <= v)%Z -> Z.to_nat (la s) <> eof -> Z.to_nat v < nst ->
  past_ok g c (topst stk) (Z.to_nat v) (T (Z.to_nat (la s))) = true ->
  exists s2,
    read_token tb (shift_state s v b) = Some s2 /\
    RInv s2.
Proof.
  intros Hw HC HE Hv Hne Hlt Hpast.
  destruct (shift_state_frame s v b) as (F1 & F2 & F3 & F4 & F5 & F6 & _ & F8 & _).
  assert (HC1 : Core (shift_state s v b) ((Z.to_nat v, Leaf (Z.to_nat (la s), 0)) :: stk) wr).
  { destruct HC as [Hst Hpath Hwr Hsym Hregs Htr].
    constructor; rewrite ?F1, ?F2, ?F3, ?F4, ?F5, ?F6, ?F8; auto.
    - constructor; auto. cbn [i_state]. rewrite Z2Nat.id; lia.
    - econstructor; eauto. constructor. }
  destruct (core_read _ _ _ HC1) as (s2 & d & wr' & Hrd & Hq2 & -> & HC2 & Hd).
  exists s2. split; [exact Hrd|].
  exists ((Z.to_nat v, Leaf (Z.to_nat (la s), 0)) :: stk), (wc ++ d), wr'. split; [|split].
  - rewrite <- app_assoc. exact Hw.
  - exact HC2.
  - (* the shifted leaf is the pending @error or the token just consumed *)
    unfold pend in *. rewrite F2, F4 in Hd. rewrite Hq2.
    unfold ytypes. simpl. rewrite map_app, app_nil_r. simpl.
    rewrite <- (Hd Hne), app_assoc.
    apply err_subst_app; [exact HE|apply err_subst_refl].
Qed.

Lemma inv_reduce s stk wc wr top v :
  w = wc ++ wr -> Core s stk wr -> err_subst wc (ytypes stk ++ pend s) ->
  i_state top = Z.of_nat (topst stk) ->
  find (t_actions tb) (i_state top) (la s) = FFound v -> (v < 0)%Z ->
  exists s', do_action tb eb discard s v = Continue s' /\ RInv s'.
Proof.
  intros Hw HC HE Htop Hf Hv. rewrite Htop in Hf.
  pose proof (C_stack _ _ _ HC) as Hst. pose proof (srel_len _ _ Hst) as Hsl.
  destruct (path_reduce g tb c nterm Hval _ _ _ (C_path _ _ _ HC) Hf Hv)
    as (p & pr & ch & rest & us & s' & Hvp & Hp0 & Hp & Hrule & Htc & Hpop & Hwf & Hys & _ & Hg & Hpath').
  destruct (apop_eq _ _ _ _ Hpop) as (Hn & _ & Hrest).
  destruct (srel_top _ _ (srel_skipn _ _ _ Hst Hn)) as (top' & Hpk' & Htop'). rewrite <- Hrest in Htop'.
  destruct (skipn (length (rhs pr)) (stack s)) as [|t0 r] eqn:Hsk; [discriminate|].
  simpl in Hpk'. inversion Hpk'; subst t0.
  rewrite do_action_reduce by exact Hv.
  erewrite do_reduce_eq; [| exact Htc | exact Hrule
    | rewrite Hvp; apply (act_spec g tb c nterm discard Hval _ _ _ Hp Hp0); lia
    | lia | rewrite Nat2Z.id; exact Hsk].
  rewrite Htop', Hg. eexists. split; [reflexivity|].
  match goal with |- RInv (red_state _ _ ?p ?res ?b ?ns ?st) =>
    destruct (red_state_frame eb s p res b ns st) as (F1 & F2 & F3 & F4 & F5 & F6 & _ & F8 & _) end.
  exists ((s', Node p ch) :: rest), wc, wr. split; [exact Hw|]. split.
  - destruct HC as [_ _ Hwr Hsym Hregs Htr]. constructor; auto.
    + rewrite F1. constructor; [reflexivity|]. rewrite Hrest, <- Hsk. apply srel_skipn; auto.
    + rewrite F3. exact Hsym.
    + rewrite F2, F4, F5, F6. exact Hregs.
    + rewrite F8. unfold snodes. simpl. constructor.
      * eexists. rewrite <- Hvp. apply in_or_app. left.
        unfold red_events. destruct (eb && _); simpl; eauto.
      * destruct (pop_nodes (evented (trace s)) _ _ _ _ Hpop Htr) as [Hn1 Hn2].
        apply Forall_app. split; eapply Forall_impl; try eassumption;
          intros q Hq; eapply evented_incl; eauto; apply incl_appr, incl_refl.
  - unfold pend in *. rewrite F4.
    replace (ytypes ((s', Node p ch) :: rest)) with (ytypes stk); auto.
    unfold ytypes. simpl. rewrite (proj2 (wt_yield g) _ _ _ Hwf), Hys. reflexivity.
Qed.

Lemma inv_found s stk wc wr top v :
  w = wc ++ wr -> Core s stk wr -> err_subst wc (ytypes stk ++ pend s) ->
  i_state top = Z.of_nat (topst stk) ->
  find (t_actions tb) (i_state top) (la s) = FFound v -> v <> accept_code ->
  exists s', do_action tb eb discard s v = Continue s' /\ RInv s'.
Proof.
  intros Hw HC HE Htop Hf Hna. pose proof Hf as Hf'. rewrite Htop in Hf'.
  destruct (val_found Hval _ _ _ (path_top_lt g tb c nterm Hval _ (C_path _ _ _ HC)) Hf')
    as [_ [?|_ Hv0 Hne Hs' Hpast|p pr Hneg _ _ _ _ _ _]]; [contradiction| |].
  - rewrite do_action_shift by assumption. unfold do_shift.
    destruct (shift_bounds_some eb (lasym s)) as (b & ->);
      [right; apply tokish_latok; exact (C_lasym _ _ _ HC)|].
    destruct (inv_shift s stk wc wr v b Hw HC HE Hv0 Hne Hs' Hpast) as (s2 & -> & HI). eauto.
  - exact (inv_reduce s stk wc wr top v Hw HC HE Htop Hf Hneg).
Qed.

Lemma rinv_accept s stk wc wr :
  w = wc ++ wr -> Core s stk wr -> err_subst wc (ytypes stk ++ pend s) ->
  Z.to_nat (la s) = eof -> item (topst stk) 0 1 eof -> Final s.
Proof.
  intros Hw HC HE Hla0 Hitem.
  destruct HC as [Hst Hpath Hwr Hsym Hregs Htr].
  destruct Hregs as [(Hq & Hla & Hin)|(Hq & Hla & Hqs & Hin)]; [|rewrite Hla in Hla0; discriminate].
  assert (wr = []) as ->.
  { destruct wr as [|t0 wr']; auto. inversion Hwr; subst. simpl in Hla. unfold eof in Hla0. lia. }
  rewrite app_nil_r in Hw. subst wc. unfold pend in HE. rewrite Hq in HE. cbn [Z.eqb Pos.eqb] in HE.
  rewrite app_nil_r in HE.
  destruct (path_accept g tb c nterm Hval _ Hpath Hitem) as (s0 & X & t & u & -> & Hs & Hwt).
  exists X, t, u. repeat split; auto.
  - unfold ytypes in HE. simpl in HE. rewrite (proj1 (wt_yield g) _ _ _ Hwt) in HE. exact HE.
  - unfold snodes in Htr. simpl in Htr. rewrite app_nil_r in Htr. exact Htr.
Qed.

Lemma inv_recover f s stk wc wr :
  w = wc ++ wr -> Core s stk wr -> err_subst wc (ytypes stk ++ pend s) ->
  match recover tb f s with
  | Continue s' => RInv s'
  | Accept _ | Crash => False
  | _ => True
  end.
Proof.
  intros Hw HC HE. pose proof (recover_view tb f s) as V.
  destruct (recover tb f s) as [s'| | | |]; auto.
  - destruct V as (e & s1 & s3 & n & e' & He & R1 & Hla1 & R3 & He1 & Hn & ->).
    destruct (core_reads _ _ R1 _ _ HC) as [(d1 & wr1 & Hwr1 & HC1) _].
    destruct (core_reads _ _ R3 _ _ HC1) as [(d3 & wr3 & Hwr3 & HC3) _].
    (* after skip_errors nothing is queued, and reads keep it so *)
    assert (Hq3 : qla s3 = (-1)%Z).
    { assert (Hq1 : qla s1 = (-1)%Z).
      { destruct (C_regs _ _ _ HC1) as [(Hq & _)|(_ & Hla & _)]; auto. rewrite Hla in Hla1. discriminate. }
      destruct (reads_frame _ _ _ R3) as (_ & _ & _ & [->|Hq]); auto. }
    rewrite <- (proj1 (reads_frame _ _ _ (reads_trans _ _ _ _ R1 R3))) in Hn |- *.
    assert (Hte' : tokish e').
    { destruct He1 as [->|(it & _ & _ & Hv)]; [|destruct e'; try destruct Hv; exact I].
      destruct (recover_errsym_token tb s e He) as [(ty & id & ks & _ & ->)|(t & ks & _ & ->)]; exact I. }
    exists (skipn n stk), (wc ++ d1 ++ d3), wr3. split; [|split].
    + rewrite Hw, Hwr1, Hwr3, <- !app_assoc. reflexivity.
    + apply core_found; auto.
    + unfold pend. cbn [set_shifts set_la qla].
      assert (E : (la s3 =? -1)%Z = false).
      { destruct (C_regs _ _ _ HC3) as [(_ & Hla & _)|(Hq & _)]; [apply Z.eqb_neq; lia|lia]. }
      rewrite E. destruct (syield_skipn n stk) as (y & Hy).
      unfold ytypes in HE. rewrite Hy, map_app, <- app_assoc in HE.
      apply err_subst_split in HE as (wa & wb & -> & Ha & Hb).
      rewrite <- app_assoc. apply err_subst_app; auto. apply err_subst_all.
  - (* no stage can crash: the Error to report exists, reads succeed, scans stay inside the tables *)
    destruct V as [He|(s1 & Hr & Hc)].
    + destruct (core_top _ _ _ HC) as (top & Hpk & _ & _ & Hv).
      pose proof (C_lasym _ _ _ HC) as Hsym. unfold recover_errsym in He.
      destruct (lasym s) as [|ty id|tk ks| | |] eqn:Hl; try destruct Hsym; [|discriminate].
      destruct (make_error_some g tb c nterm Hval s ty id top Hl Hpk Hv) as (ks & Hk). congruence.
    + destruct (core_reads _ _ Hr _ _ HC) as [(d & wr1 & _ & HC1) Hne].
      destruct Hc as [Hc|(f1 & e1 & Hc)]; [exact (Hne Hc)|].
      apply (recover_pops_nocrash g tb c nterm Hval f1 (la s1) (stack s1) e1); [|exact Hc].
      exact (srel_valid _ _ (C_stack _ _ _ HC1) (C_path _ _ _ HC1)).
Qed.

Lemma pstep_rinv rec f s : RInv s ->
  match pstep tb eb rec discard f s with
  | Continue s' => RInv s'
  | Accept s' => s' = s /\ Final s
  | Crash => False
  | _ => True
  end.
Proof.
  intros (stk & wc & wr & Hw & HC & HE).
  destruct (core_top _ _ _ HC) as (top & Hpk & Htop & Hlt & Hv).
  pose proof (val_action_find Hval (topst stk) (la s) Hlt) as Hnc. rewrite <- Htop in Hnc.
  rewrite pstep_eq, Hpk.
  destruct (find (t_actions tb) (i_state top) (la s)) as [v| |] eqn:Hf; [clear Hnc| |destruct Hnc].
  - destruct (Z.eq_dec v accept_code) as [->|Hna].
    + rewrite do_action_accept. split; auto. rewrite Htop in Hf.
      destruct (val_found Hval _ _ _ Hlt Hf) as [Hrange [_ He Hi|? _ _ _ _|? ? Hneg _ _ _ _ _ _]];
        [|contradiction|unfold accept_code in Hneg; lia].
      eapply rinv_accept; eauto.
    + destruct (inv_found s stk wc wr top v Hw HC HE Htop Hf Hna) as (s' & -> & HI). exact HI.
  - destruct rec; [|exact I]. pose proof (inv_recover f s stk wc wr Hw HC HE) as Hr.
    destruct (recover tb f s); auto. destruct Hr.
Qed.

(* rec is arbitrary: without recovery a missing action rejects *)
Lemma ploop_rinv rec fuel : forall s, RInv s ->
  ploop tb eb rec discard fuel s <> Crash /\
  (forall s', ploop tb eb rec discard fuel s = Accept s' -> Final s').
Proof.
  induction fuel as [|f IH]; intros s HI.
  - simpl. split; [discriminate|]. intros; discriminate.
  - rewrite ploop_unfold. pose proof (pstep_rinv rec (S f) s HI) as Hs.
    destruct (pstep tb eb rec discard (S f) s) as [s1|s1|s1| |].
    + apply IH. exact Hs.
    + destruct Hs as [-> HF]. split; [discriminate|]. intros s' H. inversion H; subst. exact HF.
    + split; [discriminate|]. intros; discriminate.
    + destruct Hs.
    + split; [discriminate|]. intros; discriminate.
Qed.

Lemma init_inv : exists s0, read_token tb (init_state (zs w)) = Some s0 /\ RInv s0.
Proof.
  set (b := {| i_state := 0; i_sym := VNil; i_bounds := no_bounds |}).
  destruct (read_real g tb c nterm Hval (init_state (zs w)) w b) as
    (s0 & Hrd & Hst & Htr & Hq & _ & Hsym & Hla & Hin); try reflexivity.
  { exists 0. split; [reflexivity|]. apply (val_nstates Hval). }
  exists s0. split; auto. exists [], [], w. split; [reflexivity|]. split.
  - constructor; auto.
    + rewrite Hst. simpl. constructor. reflexivity.
    + constructor.
    + unfold snodes. simpl. constructor.
  - unfold pend. rewrite Hq. simpl. constructor.
Qed.

Lemma parse_rinv rec fuel :
  parse tb eb rec discard fuel (zs w) <> Crash /\
  (forall s, parse tb eb rec discard fuel (zs w) = Accept s -> Final s).
Proof.
  destruct init_inv as (s0 & Hrd & HI). unfold parse. rewrite Hrd. apply ploop_rinv. exact HI.
Qed.

End Word.

Theorem parse_never_crashes : forall w fuel, tokens1 nterm w ->
  parse tb eb true discard fuel (zs w) <> Crash.
Proof. intros w fuel Hw. apply (proj1 (parse_rinv w Hw true fuel)). Qed.

Theorem accept_is_sentence_with_errors : forall w fuel s, tokens1 nterm w ->
  parse tb eb true discard fuel (zs w) = Accept s ->
  exists u X t toks, err_subst w u /\ start_sym g = Some X /\ wt g X t toks /\ map fst toks = u.
Proof.
  intros w fuel s Hw H.
  destruct (proj2 (parse_rinv w Hw true fuel) s H) as (X & t & toks & Hs & Ht & He & _).
  exists (map fst toks), X, t, toks. auto.
Qed.

Lemma ordinary_tokens1 w : ordinary nterm w -> tokens1 nterm w.
Proof. apply Forall_impl. intros a Ha. lia. Qed.

(* The hypothesis on the start symbol is necessary: for the grammar
   S' -> @error the empty input is accepted after a recovery without any
   reduction, and [] is not a sentence. *)
Theorem nonsentence_reports : start_sym g <> Some (T error_t) ->
  forall w fuel s, ordinary nterm w ->
  parse tb eb true discard fuel (zs w) = Accept s ->
  (exists p pr res, In (ERed (Z.of_nat p) res) (trace s) /\ nth_error g p = Some pr /\
                    In (T error_t) (rhs pr)) \/
  sentence g (tokens_of w).
Proof.
  intros Hstart w fuel s Hord H.
  destruct (proj2 (parse_rinv w (ordinary_tokens1 w Hord) true fuel) s H) as (X & t & toks & Hs & Ht & He & Hev).
  destruct (in_dec Nat.eq_dec error_t (map fst toks)) as [Hin|Hnin].
  - destruct (proj1 (err_leaf_node g) _ _ _ Ht Hin) as [->|(p & pr & Hp & Hpr & Hr)]; [congruence|].
    left. rewrite Forall_forall in Hev. destruct (Hev p Hp) as (res & Hres).
    exists p, pr, res. auto.
  - right. apply err_subst_no_err in He; auto.
    destruct (proj1 (wt_relabel g) _ _ _ Ht (tokens_of w)) as (t' & Ht').
    + change (tokens_of w) with (tokens_from 0 w). rewrite (map_fst_tokens_from w 0). symmetry. exact He.
    + exists X, t'. auto.
Qed.

End Sound.

Print Assumptions parse_never_crashes.
Print Assumptions accept_is_sentence_with_errors.
Print Assumptions nonsentence_reports.
