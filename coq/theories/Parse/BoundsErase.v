(* The _onBounds bookkeeping changes nothing else about a parse.  For all
   tables, all inputs (ERROR tokens included) and both values of rec_enabled,
   the run with emit_bounds = true is, after erasing the bounds of the stack
   entries and the EBounds events, the run with emit_bounds = false -- crashes
   included: the extra type assertion of the shift case never fails because
   _lasym always holds a Token or an Error. *)
From Coq Require Import List ZArith.
From Lox Require Import Parse.Tables Parse.ParseRuntime Parse.RuntimeFacts Parse.Recovery.
Import ListNotations.
Local Open Scope Z_scope.

Definition erase_item (it : sitem) : sitem :=
  {| i_state := i_state it; i_sym := i_sym it; i_bounds := no_bounds |}.

Definition not_bounds (e : event) : bool :=
  match e with EBounds _ _ _ => false | _ => true end.

Definition erase_state (s : pstate) : pstate :=
  {| stack := map erase_item (stack s); la := la s; lasym := lasym s;
     qla := qla s; qlasym := qlasym s; input := input s; pos := pos s;
     trace := filter not_bounds (trace s);
     shifts := shifts s; rec_shifts := rec_shifts s |}.

Definition erase_outcome (o : outcome) : outcome :=
  match o with
  | Continue s => Continue (erase_state s)
  | Accept s => Accept (erase_state s)
  | Reject s => Reject (erase_state s)
  | Crash => Crash
  | Fuel => Fuel
  end.

Definition tokerr (v : value) : Prop :=
  match v with VTok _ _ | VErr _ _ => True | _ => False end.

Definition Inv (s : pstate) : Prop :=
  tokerr (lasym s) /\ (qla s <> -1 -> tokerr (qlasym s)).

Section Erase.
Variable tb : tables.
Variable discard : value -> bool.

Lemma peek_erase st n : peek (map erase_item st) n = option_map erase_item (peek st n).
Proof. unfold peek. apply nth_error_map. Qed.

Lemma peek_sym_erase st n : peek_sym (map erase_item st) n = peek_sym st n.
Proof. unfold peek_sym. rewrite peek_erase. destruct (peek st n); reflexivity. Qed.

Lemma peek_args_erase st n : peek_args (map erase_item st) n = peek_args st n.
Proof.
  induction n as [|n IH]; [reflexivity|]. cbn [peek_args]. rewrite peek_sym_erase, IH. reflexivity.
Qed.

Lemma act_erase st p : act tb discard (map erase_item st) p = act tb discard st p.
Proof.
  unfold act. destruct (p <? 0); [reflexivity|].
  destruct (nth_error (t_kinds tb) (Z.to_nat p)) as [k|]; [|reflexivity].
  destruct (nthz (t_term_counts tb) p) as [tc|]; [|reflexivity].
  destruct k; rewrite ?peek_sym_erase, ?peek_args_erase; reflexivity.
Qed.

Lemma make_error_ext s s' : lasym s' = lasym s -> stack s' = map erase_item (stack s) ->
  make_error tb s' = make_error tb s.
Proof.
  intros Hl Hs. unfold make_error. rewrite Hl, Hs, peek_erase.
  destruct (lasym s); try reflexivity. destruct (peek (stack s) 0); reflexivity.
Qed.

Lemma read_token_erase s : read_token tb (erase_state s) = option_map erase_state (read_token tb s).
Proof.
  unfold read_token. cbn [qla qlasym erase_state].
  destruct (negb (qla s =? -1)); [reflexivity|].
  unfold lex_read. cbn [input pos erase_state]. destruct (input s) as [|ty rest].
  - reflexivity.
  - destruct (ty =? ERROR); [|reflexivity].
    match goal with |- match make_error tb ?a with _ => _ end = option_map _ (match make_error tb ?b with _ => _ end) =>
      rewrite (make_error_ext b a) by reflexivity end.
    match goal with |- context [make_error tb ?b] => destruct (make_error tb b) end; reflexivity.
Qed.

Lemma skip_errors_erase f : forall s,
  skip_errors tb f (erase_state s) = erase_outcome (skip_errors tb f s).
Proof.
  induction f as [|f IH]; intros s; [reflexivity|]. cbn [skip_errors].
  change (la (erase_state s)) with (la s). destruct (la s =? ERROR); [|reflexivity].
  rewrite read_token_erase. destruct (read_token tb s) as [s'|]; [apply IH|reflexivity].
Qed.

Definition erase_pops (r : pops) : pops :=
  match r with
  | PFound st e => PFound (map erase_item st) e
  | r => r
  end.

Lemma states_erase st : map i_state (map erase_item st) = map i_state st.
Proof. rewrite map_map. reflexivity. Qed.

Lemma recover_pops_erase fuel look : forall st e,
  recover_pops tb fuel (map erase_item st) look e = erase_pops (recover_pops tb fuel st look e).
Proof.
  induction st as [|top st IH]; intros e; [reflexivity|].
  change (map erase_item (top :: st)) with (erase_item top :: map erase_item st).
  cbn [recover_pops].
  change (erase_item top :: map erase_item st) with (map erase_item (top :: st)).
  rewrite states_erase. change (i_sym (erase_item top)) with (i_sym top).
  destruct (recover_sim tb fuel (map i_state (top :: st)) look); try reflexivity. apply IH.
Qed.

Lemma recover_outer_erase f : forall e s,
  recover_outer tb f e (erase_state s) = erase_outcome (recover_outer tb f e s).
Proof.
  induction f as [|f IH]; intros e s; [reflexivity|]. cbn [recover_outer].
  change (stack (erase_state s)) with (map erase_item (stack s)).
  change (la (erase_state s)) with (la s).
  rewrite recover_pops_erase.
  destruct (recover_pops tb (S f) (stack s) (la s) e) as [st' e'|e'| |]; try reflexivity.
  cbn [erase_pops]. destruct (la s =? EOF); [reflexivity|].
  rewrite read_token_erase. destruct (read_token tb s) as [s'|]; [apply IH|reflexivity].
Qed.

Lemma drop_if_stuck_erase f s :
  drop_if_stuck tb f (erase_state s) = erase_outcome (drop_if_stuck tb f s).
Proof.
  unfold drop_if_stuck.
  change (shifts (erase_state s)) with (shifts s).
  change (rec_shifts (erase_state s)) with (rec_shifts s).
  change (la (erase_state s)) with (la s).
  destruct (shifts s =? rec_shifts s); [|reflexivity].
  destruct (la s =? EOF); [reflexivity|].
  rewrite read_token_erase. destruct (read_token tb s) as [s'|]; [|reflexivity].
  apply skip_errors_erase.
Qed.

Lemma recover_erase f s : recover tb f (erase_state s) = erase_outcome (recover tb f s).
Proof.
  unfold recover. change (lasym (erase_state s)) with (lasym s).
  rewrite (make_error_ext s (erase_state s)) by reflexivity.
  rewrite skip_errors_erase.
  destruct (match lasym s with VErr _ _ => Some (lasym s) | _ => make_error tb s end) as [e|];
    [|reflexivity].
  destruct (skip_errors tb f s) as [s1| | | |]; try reflexivity. cbn [erase_outcome].
  rewrite drop_if_stuck_erase.
  destruct (drop_if_stuck tb f s1) as [s2| | | |]; try reflexivity. apply recover_outer_erase.
Qed.

Lemma read_token_inv s s' : (qla s <> -1 -> tokerr (qlasym s)) ->
  read_token tb s = Some s' -> Inv s'.
Proof.
  intros Hq Hrd. destruct (Z.eq_dec (qla s) (-1)) as [E|E].
  - destruct (read_token_fresh tb s s' E Hrd) as (_ & Hq' & _ & _ & _ & Hsym). split.
    + destruct (la s' =? ERROR); [destruct Hsym as (ks & ->)|rewrite Hsym]; exact I.
    + intros H. contradiction.
  - rewrite (read_token_queued tb s E) in Hrd. inversion Hrd; subst s'. split; cbn; [auto|].
    intros H. contradiction.
Qed.

Lemma read_token_keeps_inv s s' : Inv s -> read_token tb s = Some s' -> Inv s'.
Proof. intros Hi. apply read_token_inv. apply Hi. Qed.

Lemma reads_inv s s' : reads tb s s' -> Inv s -> Inv s'.
Proof. induction 1; eauto using read_token_keeps_inv. Qed.

(* _recover leaves in _lasym the Error of this detection or one that a popped
   entry held, and queues the lookahead it stopped at *)
Lemma recover_inv f s s' : Inv s -> recover tb f s = Continue s' -> Inv s'.
Proof.
  intros Hi H. pose proof (recover_view tb f s) as V. rewrite H in V.
  destruct V as (e & s1 & s3 & n & e' & He & R1 & _ & R3 & He' & _ & ->).
  pose proof (reads_inv _ _ R3 (reads_inv _ _ R1 Hi)) as Hi3. split; cbn.
  - destruct He' as [->|(it & _ & _ & Hv)]; [|destruct e'; try contradiction; exact I].
    destruct (recover_errsym_token tb _ _ He) as [(ty & id & ks & _ & ->)|(t & ks & _ & ->)]; exact I.
  - intros _. apply Hi3.
Qed.

Lemma pstep_inv eb rec f s s' : Inv s -> pstep tb eb rec discard f s = Continue s' -> Inv s'.
Proof.
  intros Hi. rewrite pstep_eq.
  destruct (peek (stack s) 0) as [top|]; [|discriminate].
  destruct (find (t_actions tb) (i_state top) (la s)) as [v| |]; [| |discriminate].
  - intros H.
    destruct (do_action_continue tb eb discard s v s' H)
      as [(_ & _ & b & _ & Hrd)|(_ & tc & rule & res & top' & r & ns & _ & _ & _ & _ & _ & _ & _ & ->)].
    + eapply read_token_inv; [|exact Hrd].
      destruct (shift_state_frame s v b) as (_ & _ & _ & Fq & Fqs & _). rewrite Fq, Fqs. apply Hi.
    + match goal with |- Inv (red_state _ _ ?p _ ?b _ ?st) =>
        destruct (red_state_frame eb s p res b ns st) as (_ & _ & Fsym & Fq & Fqs & _) end.
      unfold Inv. rewrite Fsym, Fq, Fqs. exact Hi.
  - destruct rec; [|discriminate]. apply recover_inv. exact Hi.
Qed.

Lemma shift_state_erase s v b :
  erase_state (shift_state s v b) = shift_state (erase_state s) v no_bounds.
Proof. unfold shift_state. cbn [la erase_state]. destruct (la s =? ERROR); reflexivity. Qed.

Lemma red_state_erase eb s p res b ns st' :
  erase_state (red_state eb s p res b ns st') =
  red_state false (erase_state s) p res no_bounds ns (map erase_item st').
Proof. unfold red_state. destruct (eb && negb (b_empty b))%bool; reflexivity. Qed.

Lemma do_shift_erase eb s v : (eb = true -> tokerr (lasym s)) ->
  erase_outcome (do_shift tb eb s v) = do_shift tb false (erase_state s) v.
Proof.
  intros Hte. unfold do_shift.
  destruct (shift_bounds_some eb (lasym s)) as (b & Hb).
  { destruct eb; [right|left; reflexivity].
    specialize (Hte eq_refl). destruct (lasym s); try contradiction; simpl; eauto. }
  rewrite Hb. cbn [shift_bounds]. rewrite <- (shift_state_erase s v b), read_token_erase.
  destruct (read_token tb (shift_state s v b)); reflexivity.
Qed.

Lemma do_reduce_erase eb s p :
  erase_outcome (do_reduce tb eb discard s p) = do_reduce tb false discard (erase_state s) p.
Proof.
  unfold do_reduce. cbn [stack erase_state]. rewrite act_erase.
  destruct (nthz (t_term_counts tb) p) as [tc|]; [|reflexivity].
  destruct (nthz (t_rules tb) p) as [rule|]; [|reflexivity].
  destruct (act tb discard (stack s) p) as [res|]; [|reflexivity].
  destruct (tc <? 0); [reflexivity|].
  unfold red_bounds, peek_slice, ParseRuntime.pop. rewrite map_length.
  destruct (Nat.leb (Z.to_nat tc) (length (stack s))); [|destruct eb; reflexivity].
  rewrite skipn_map, peek_erase.
  destruct (peek (skipn (Z.to_nat tc) (stack s)) 0) as [top'|]; [|destruct eb; reflexivity].
  cbn [option_map]. change (i_state (erase_item top')) with (i_state top').
  destruct (find (t_goto tb) (i_state top') rule); destruct eb; cbn [erase_outcome];
    rewrite ?red_state_erase; reflexivity.
Qed.

Lemma pstep_erase eb rec f s : (eb = true -> tokerr (lasym s)) ->
  erase_outcome (pstep tb eb rec discard f s) = pstep tb false rec discard f (erase_state s).
Proof.
  intros Hte. rewrite !pstep_eq. cbn [stack la erase_state]. rewrite peek_erase.
  destruct (peek (stack s) 0) as [top|]; [|reflexivity]. cbn [option_map].
  change (i_state (erase_item top)) with (i_state top).
  destruct (find (t_actions tb) (i_state top) (la s)) as [v| |]; [| |reflexivity].
  - unfold do_action. destruct (v =? accept_code); [reflexivity|].
    destruct (v >=? 0); [apply do_shift_erase; exact Hte|apply do_reduce_erase].
  - destruct rec; [|reflexivity]. symmetry. apply recover_erase.
Qed.

Lemma ploop_erase eb rec f : forall s, Inv s ->
  erase_outcome (ploop tb eb rec discard f s) = ploop tb false rec discard f (erase_state s).
Proof.
  induction f as [|f IH]; intros s Hi; [reflexivity|]. cbn [ploop].
  rewrite <- (pstep_erase eb rec (S f) s) by (intros _; apply Hi).
  destruct (pstep tb eb rec discard (S f) s) as [s'| | | |] eqn:E; try reflexivity.
  cbn [erase_outcome]. apply IH. eapply pstep_inv; eauto.
Qed.

Lemma erase_init w : erase_state (init_state w) = init_state w.
Proof. reflexivity. Qed.

Lemma parse_erase eb rec f w :
  erase_outcome (parse tb eb rec discard f w) = parse tb false rec discard f w.
Proof.
  unfold parse.
  pose proof (read_token_erase (init_state w)) as Hrd. rewrite erase_init in Hrd.
  destruct (read_token tb (init_state w)) as [s|] eqn:E; [|reflexivity].
  cbn [option_map] in Hrd. injection Hrd as Hs.
  assert (Hi : Inv s).
  { eapply read_token_inv; [|exact E]. cbn. intros H. contradiction. }
  rewrite (ploop_erase eb rec f s Hi). rewrite <- Hs. reflexivity.
Qed.

Theorem bounds_erasure : forall rec fuel w,
  erase_outcome (parse tb true rec discard fuel w) =
  erase_outcome (parse tb false rec discard fuel w).
Proof. intros. rewrite !parse_erase. reflexivity. Qed.

Theorem bounds_erasure_exact : forall rec fuel w,
  erase_outcome (parse tb true rec discard fuel w) = parse tb false rec discard fuel w.
Proof. intros. apply parse_erase. Qed.

Corollary bounds_accept_iff rec fuel w :
  (exists s, parse tb true rec discard fuel w = Accept s) <->
  (exists s, parse tb false rec discard fuel w = Accept s).
Proof.
  rewrite <- bounds_erasure_exact.
  destruct (parse tb true rec discard fuel w); cbn [erase_outcome];
    split; intros [s' H]; try discriminate; eauto.
Qed.

Corollary bounds_crash_iff rec fuel w :
  parse tb true rec discard fuel w = Crash <-> parse tb false rec discard fuel w = Crash.
Proof.
  rewrite <- bounds_erasure_exact.
  destruct (parse tb true rec discard fuel w); cbn [erase_outcome];
    split; intros H; try discriminate; auto.
Qed.

End Erase.

Print Assumptions bounds_erasure.
Print Assumptions bounds_erasure_exact.
Print Assumptions bounds_accept_iff.
Print Assumptions bounds_crash_iff.
