(* Termination of the generated parser on every input, from the boolean check
   [term_ok] of Parse/TermCheck.v on the emitted tables (C09); hence parse()
   without recovery decides membership (C01).
   The state numbers on the stack form a path of the automaton ([zpath]).  A
   phase of [local_run] on (rel, Some base) is what the chain of reductions does
   on the whole stack rel ++ base :: below, up to the escape ([phase_embed]), so
   on a path of height h a chain under any lookahead ends within h * (F + 1)
   iterations.  For the whole run, [m2] decreases at every shift and every pass
   through _recover and is unchanged by reductions.  One fuel is shared, so
   [halts] lets every iteration name the fuel it needs and monotonicity of the
   outcomes in the fuel does the rest. *)
From Coq Require Import List ZArith Lia Bool.
From Lox Require Import Parse.Grammar Parse.Tables Parse.Validator
  Parse.ValidatorFacts Parse.ParseRuntime Parse.RuntimeFacts Parse.Refine Parse.Complete Parse.Sound
  Parse.Recovery Parse.RecoveryProgress Parse.TermCheck.
Import ListNotations.

Lemma scan_entries_find x v : forall f t i e acc l,
  row_entries_scan f t i e acc = Some l ->
  incl (rev acc) l /\ (find_scan f t i e x = FFound v -> In (x, v) l).
Proof.
  induction f as [|f IH]; intros t i e acc l H; cbn [row_entries_scan find_scan] in *.
  - inversion H; subst. split; [apply incl_refl|discriminate].
  - destruct (i <? e)%Z.
    + destruct (nthz t i) as [k|]; [|discriminate].
      destruct (nthz t (i + 1)) as [w|]; [|discriminate].
      destruct (IH _ _ _ _ _ H) as [Hi Hf]. cbn [rev] in Hi. split.
      * intros y Hy. apply Hi. apply in_or_app. left. exact Hy.
      * destruct (k =? x)%Z eqn:E.
        -- intros Hv. inversion Hv; subst. apply Z.eqb_eq in E. subst.
           apply Hi. apply in_or_app. right. left. reflexivity.
        -- exact Hf.
    + inversion H; subst. split; [apply incl_refl|discriminate].
Qed.

Lemma find_entries t y x v l :
  TermCheck.row_entries t y = Some l -> find t y x = FFound v -> In (x, v) l.
Proof.
  unfold TermCheck.row_entries, find. intros H Hf.
  destruct (nthz t y) as [i|]; [|discriminate].
  destruct (nthz t i) as [count|]; [|discriminate].
  eapply scan_entries_find; eauto.
Qed.

Section LocalRun.
Variable tb : tables.

Lemma local_run_mono a f1 : forall f2 rel base r, f1 <= f2 -> r <> TFuel ->
  local_run tb f1 rel base a = r -> local_run tb f2 rel base a = r.
Proof.
  induction f1 as [|f1 IH]; intros f2 rel base r Hle Hr H.
  - simpl in H. congruence.
  - destruct f2 as [|f2]; [lia|]. cbn [local_run] in *.
    destruct (exposed rel base) as [top|]; auto.
    destruct (find (t_actions tb) top a) as [action| |]; auto.
    destruct (action >=? 0)%Z; auto.
    destruct (nthz (t_term_counts tb) (- action)) as [tc|]; auto.
    destruct (nthz (t_rules tb) (- action)) as [rule|]; auto.
    destruct (tc <? 0)%Z; auto.
    destruct (Nat.ltb (length rel) (Z.to_nat tc)); auto.
    destruct (exposed (skipn (Z.to_nat tc) rel) base) as [ex|]; auto.
    destruct (find (t_goto tb) ex rule) as [ns| |]; auto; apply IH; auto; lia.
Qed.

Lemma local_run_more a f1 f2 rel base : f1 <= f2 ->
  local_run tb f1 rel base a <> TFuel -> local_run tb f2 rel base a <> TFuel.
Proof.
  intros Hle H. rewrite (local_run_mono a f1 f2 rel base _ Hle H eq_refl). exact H.
Qed.

Lemma local_step a k st top st0 v tc rule ex rest ns :
  st = top :: st0 -> find (t_actions tb) top a = FFound v -> (v < 0)%Z ->
  nthz (t_term_counts tb) (- v) = Some tc -> nthz (t_rules tb) (- v) = Some rule ->
  (0 <= tc)%Z -> skipn (Z.to_nat tc) st = ex :: rest ->
  find (t_goto tb) ex rule = FFound ns ->
  local_run tb (S k) st None a = local_run tb k (ns :: ex :: rest) None a.
Proof.
  intros Hst Hf Hv Htc Hrule Htc0 Hsk Hg. cbn [local_run].
  rewrite Hst at 1. cbn [exposed].
  rewrite Hf, (proj2 (geb0_false v) Hv), Htc, Hrule, (proj2 (Z.ltb_ge _ _) Htc0).
  assert (Hlt : Nat.ltb (length st) (Z.to_nat tc) = false).
  { apply Nat.ltb_ge. destruct (le_lt_dec (Z.to_nat tc) (length st)) as [Hle|Hlt]; auto.
    rewrite skipn_all2 in Hsk by lia. discriminate. }
  rewrite Hlt, Hsk. cbn [exposed]. rewrite Hg. reflexivity.
Qed.

(* the simulated scan of _recover is a chain under the lookahead ERROR *)
Lemma sim_of_local look f : forall st,
  local_run tb f st None ERROR <> TFuel -> recover_sim tb f st look <> SimFuel.
Proof.
  induction f as [|f IH]; intros st H; [simpl in H; congruence|].
  cbn [recover_sim local_run] in *.
  destruct st as [|state st0] eqn:Est; [discriminate|]. rewrite <- Est in *.
  assert (Hex : exposed st None = Some state) by (rewrite Est; reflexivity).
  rewrite Hex in H.
  destruct (find (t_actions tb) state ERROR) as [action| |]; try discriminate.
  destruct (action <? 0)%Z eqn:E; [|destruct (find (t_actions tb) action look); discriminate].
  rewrite (proj2 (geb0_false action) (proj1 (Z.ltb_lt _ _) E)) in H.
  destruct (nthz (t_term_counts tb) (- action)) as [tc|]; [|discriminate].
  destruct (nthz (t_rules tb) (- action)) as [rule|]; [|discriminate].
  destruct (tc <? 0)%Z eqn:Etc; [discriminate|]. apply Z.ltb_ge in Etc.
  destruct (Z.of_nat (length st) <=? tc)%Z eqn:Elen; [discriminate|].
  apply Z.leb_gt in Elen.
  assert (Hlt : Nat.ltb (length st) (Z.to_nat tc) = false) by (apply Nat.ltb_ge; lia).
  rewrite Hlt in H.
  destruct (skipn (Z.to_nat tc) st) as [|ex rest]; [discriminate|]. cbn [exposed] in H.
  destruct (find (t_goto tb) ex rule) as [ns| |]; try discriminate; apply IH; exact H.
Qed.

End LocalRun.

Section Chain.
Variable g : grammar.
Variable tb : tables.
Variable c : cert.
Variable nterm : nat.
Variable F : nat.
Hypothesis Hval : validate g tb c nterm = true.
Hypothesis Hterm : term_ok tb (nstates c) F = true.

Notation nst := (nstates c).
Notation item s p d a := (has_item c s (p, d, a) = true).

Definition succ_of (s s' : Z) : Prop := exists l, successors tb s = Some l /\ In s' l.

Inductive zpath : list Z -> Prop :=
| zp_bot : zpath [0%Z]
| zp_cons s s' X rest :
    zpath (Z.of_nat s :: rest) -> past_ok g c s s' X = true -> s' < nst ->
    succ_of (Z.of_nat s) (Z.of_nat s') -> zpath (Z.of_nat s' :: Z.of_nat s :: rest).

Lemma zpath_top st : zpath st -> exists s rest, st = Z.of_nat s :: rest /\ s < nst.
Proof.
  destruct 1 as [|s s' X rest Hp Hpast Hs' Hsucc].
  - exists 0, []. split; [reflexivity|]. apply (val_nstates Hval).
  - exists s', (Z.of_nat s :: rest). auto.
Qed.

Lemma zpath_tail z st : zpath (z :: st) -> st = [] \/ zpath st.
Proof. intros H. inversion H; subst; auto. Qed.

Lemma zpath_skipn n : forall st, zpath st -> n < length st -> zpath (skipn n st).
Proof.
  induction n as [|n IH]; intros st Hp Hn; [exact Hp|].
  destruct st as [|z st]; [simpl in Hn; lia|]. cbn [skipn].
  destruct (zpath_tail _ _ Hp) as [->|Hp']; [simpl in Hn; lia|].
  apply IH; auto. simpl in Hn. lia.
Qed.

Lemma term_state_ok s : s < nst -> state_ok tb F (Z.of_nat s) = true.
Proof.
  intros Hs. unfold term_ok in Hterm. apply andb_true_iff in Hterm as [_ H].
  rewrite forallb_forall in H. apply H. apply in_seq. lia.
Qed.

Lemma successors_rows s : s < nst ->
  exists acts gotos,
    TermCheck.row_entries (t_actions tb) (Z.of_nat s) = Some acts /\
    TermCheck.row_entries (t_goto tb) (Z.of_nat s) = Some gotos /\
    successors tb (Z.of_nat s) =
    Some (map snd (filter (fun kv => (0 <=? snd kv)%Z && negb (snd kv =? accept_code)%Z) acts)
          ++ map snd gotos).
Proof.
  intros Hs. pose proof (term_state_ok s Hs) as H. unfold state_ok, successors in *.
  destruct (TermCheck.row_entries (t_actions tb) (Z.of_nat s)) as [acts|]; [|discriminate].
  destruct (TermCheck.row_entries (t_goto tb) (Z.of_nat s)) as [gotos|]; [|discriminate]. eauto.
Qed.

Lemma succ_goto s x v : s < nst -> find (t_goto tb) (Z.of_nat s) x = FFound v -> succ_of (Z.of_nat s) v.
Proof.
  intros Hs Hf. destruct (successors_rows s Hs) as (acts & gotos & _ & Hg & Hl).
  eexists. split; [exact Hl|]. apply in_or_app. right.
  change v with (snd (x, v)). apply in_map. eapply find_entries; eauto.
Qed.

Lemma succ_shift s x v : s < nst -> find (t_actions tb) (Z.of_nat s) x = FFound v ->
  (0 <= v)%Z -> v <> accept_code -> succ_of (Z.of_nat s) v.
Proof.
  intros Hs Hf Hv Hna. destruct (successors_rows s Hs) as (acts & gotos & Ha & _ & Hl).
  eexists. split; [exact Hl|]. apply in_or_app. left.
  change v with (snd (x, v)). apply in_map. apply filter_In. split; [eapply find_entries; eauto|].
  cbn [snd]. apply andb_true_iff. split; [apply Z.leb_le; exact Hv|].
  apply negb_true_iff. apply Z.eqb_neq. exact Hna.
Qed.

Lemma zpath_lt s rest : zpath (Z.of_nat s :: rest) -> s < nst.
Proof.
  intros Hz. destruct (zpath_top _ Hz) as (s1 & r1 & E & Hs1). inversion E as [[E1 E2]].
  apply Nat2Z.inj in E1. subst. exact Hs1.
Qed.

Lemma zpath_shift top rest a v :
  zpath (top :: rest) -> find (t_actions tb) top a = FFound v ->
  (0 <= v)%Z -> v <> accept_code ->
  zpath (v :: top :: rest) /\ (a =? EOF)%Z = false.
Proof.
  intros Hp Hf Hv Hna.
  destruct (zpath_top _ Hp) as (s & rest' & E & Hs). inversion E; subst top rest'. clear E.
  destruct (val_found Hval _ _ _ Hs Hf) as [_ [?|_ _ Hne Hs' Hpast|? ? ?]]; try lia.
  split.
  - rewrite <- (Z2Nat.id v Hv). econstructor; eauto.
    rewrite (Z2Nat.id v Hv). eapply succ_shift; eauto.
  - apply Z.eqb_neq. unfold EOF. intros ->. apply Hne. reflexivity.
Qed.

Lemma zpath_pop p : forall d s rest a,
  zpath (Z.of_nat s :: rest) -> item s p d a ->
  d < length (Z.of_nat s :: rest) /\
  exists s0 rest0 a0, skipn d (Z.of_nat s :: rest) = Z.of_nat s0 :: rest0 /\
    zpath (Z.of_nat s0 :: rest0) /\ s0 < nst /\ item s0 p 0 a0.
Proof.
  induction d as [|d IH]; intros s rest a Hz Hi.
  - split; [simpl; lia|]. exists s, rest, a. cbn [skipn]. repeat split; auto.
    exact (zpath_lt _ _ Hz).
  - inversion Hz as [E|s1 s' X rest1 Hz1 Hpast Hs' Hsucc [E1 E2]].
    + assert (s = 0) by lia. subst s.
      apply (val_init_d0 Hval) in Hi. discriminate.
    + apply Nat2Z.inj in E1. subst s' rest.
      pose proof (val_past g c _ _ _ _ _ _ Hpast Hi) as (pr' & a' & Hp' & Hd & Hi').
      destruct (IH s1 rest1 a' Hz1 Hi') as (Hlen & s0 & rest0 & a0 & Hsk & Hz0 & Hs0 & Hi0).
      split; [cbn [length] in Hlen |- *; lia|]. exists s0, rest0, a0. cbn [skipn]. auto.
Qed.

(* in particular the goto is found: "missing goto pushes 0" cannot happen on a path *)
Lemma zpath_reduce st top st0 a v tc rule :
  zpath st -> st = top :: st0 -> find (t_actions tb) top a = FFound v -> (v < 0)%Z ->
  nthz (t_term_counts tb) (- v) = Some tc -> nthz (t_rules tb) (- v) = Some rule ->
  (0 <= tc)%Z /\ Z.to_nat tc < length st /\
  exists ex rest ns, skipn (Z.to_nat tc) st = ex :: rest /\
    find (t_goto tb) ex rule = FFound ns /\ zpath (ns :: ex :: rest).
Proof.
  intros Hz Hst Hf Hv Htc Hrule. subst st.
  destruct (zpath_top _ Hz) as (s & rest' & E & Hs). inversion E; subst top rest'. clear E.
  destruct (val_found Hval _ _ _ Hs Hf) as [_ [?|? ?|p pr _ _ Hp0 Hp Hitem Hr Htc']];
    try (unfold accept_code in *; lia).
  rewrite Hr in Hrule. rewrite Htc' in Htc. inversion Hrule; subst rule. inversion Htc; subst tc.
  rewrite Nat2Z.id.
  destruct (zpath_pop _ _ _ _ _ Hz Hitem) as (Hlen & s0 & rest0 & a0 & Hsk & Hz0 & Hs0 & Hi0).
  split; [lia|]. split; [exact Hlen|].
  destruct (val_goto_lhs g tb c nterm Hval _ _ _ _ Hi0 Hp Hp0) as (s' & Hg).
  destruct (val_goto_of Hval _ _ _ Hs0 Hg) as (Hs' & Hpast & Hgf).
  exists (Z.of_nat s0), rest0, (Z.of_nat s'). repeat split; auto.
  econstructor; eauto. eapply succ_goto; eauto.
Qed.

Lemma exposed_app rel b below : exposed rel (Some b) = exposed (rel ++ b :: below) None.
Proof. destruct rel; reflexivity. Qed.

Lemma phase_embed a b below k :
  (forall st', zpath st' -> length st' <= S (length below) -> local_run tb k st' None a <> TFuel) ->
  forall f rel, zpath (rel ++ b :: below) ->
  local_run tb f rel (Some b) a <> TFuel ->
  local_run tb (f + k) (rel ++ b :: below) None a <> TFuel.
Proof.
  intros Hk. induction f as [|f IH]; intros rel Hz H; [simpl in H; congruence|].
  change (S f + k) with (S (f + k)). cbn [local_run] in *.
  rewrite <- (exposed_app rel b below).
  destruct (exposed rel (Some b)) as [top|] eqn:Hex; [|discriminate].
  assert (Hst : exists st0, rel ++ b :: below = top :: st0)
    by (destruct rel; inversion Hex; subst; simpl; eauto).
  destruct Hst as (st0 & Hst).
  destruct (find (t_actions tb) top a) as [v| |] eqn:Hf; try discriminate.
  destruct (v >=? 0)%Z eqn:Hv; [discriminate|].
  destruct (nthz (t_term_counts tb) (- v)) as [tc|] eqn:Htc; [|discriminate].
  destruct (nthz (t_rules tb) (- v)) as [rule|] eqn:Hrule; [|discriminate].
  destruct (zpath_reduce _ _ _ _ _ _ _ Hz Hst Hf (proj1 (geb0_false v) Hv) Htc Hrule)
    as (Htc0 & Hlen & ex & rest & ns & Hsk & Hg & Hz').
  rewrite (proj2 (Z.ltb_ge _ _) Htc0) in *.
  assert (Hlt : Nat.ltb (length (rel ++ b :: below)) (Z.to_nat tc) = false) by (apply Nat.ltb_ge; lia).
  rewrite Hlt, Hsk. cbn [exposed]. rewrite Hg.
  destruct (Nat.ltb (length rel) (Z.to_nat tc)) eqn:Hesc.
  - (* the reduction pops the base: the stack is lower than at the start of the phase *)
    apply Nat.ltb_lt in Hesc.
    apply (local_run_more tb a k (f + k)); [lia|]. apply Hk; auto.
    pose proof (skipn_length (Z.to_nat tc) (rel ++ b :: below)) as Hl. rewrite Hsk in Hl.
    rewrite app_length in Hl. cbn [length] in *. lia.
  - apply Nat.ltb_ge in Hesc.
    rewrite skipn_app in Hsk.
    replace (Z.to_nat tc - length rel) with 0 in Hsk by lia. cbn [skipn] in Hsk.
    rewrite (exposed_app _ b below), Hsk in H. cbn [exposed] in H. rewrite Hg in H.
    rewrite <- Hsk in Hz' |- *. apply (IH (ns :: skipn (Z.to_nat tc) rel)); assumption.
Qed.

Lemma phase_ok_run base s1 a : phases_ok tb F base s1 = true ->
  local_run tb (S F) [s1] base a <> TFuel.
Proof.
  intros H. unfold phases_ok in H.
  destruct (TermCheck.row_entries (t_actions tb) s1) as [acts|] eqn:Hacts; [|discriminate].
  rewrite forallb_forall in H.
  destruct (find (t_actions tb) s1 a) as [v| |] eqn:Hf.
  - pose proof (H _ (find_entries _ _ _ _ _ Hacts Hf)) as Hn. cbn [fst] in Hn.
    apply (local_run_more tb a F (S F)); [lia|].
    destruct (local_run tb F [s1] base a); simpl in Hn; congruence.
  - cbn [local_run exposed]. rewrite Hf. discriminate.
  - cbn [local_run exposed]. rewrite Hf. discriminate.
Qed.

Lemma term_bottom_ok : phases_ok tb F None 0%Z = true.
Proof. unfold term_ok in Hterm. apply andb_true_iff in Hterm as [H _]. exact H. Qed.

Lemma term_pair_ok s s' : s < nst -> succ_of (Z.of_nat s) s' -> phases_ok tb F (Some (Z.of_nat s)) s' = true.
Proof.
  intros Hs (l & Hl & Hin). pose proof (term_state_ok s Hs) as H. unfold state_ok in H.
  rewrite Hl in H. rewrite forallb_forall in H. apply H. exact Hin.
Qed.

Lemma chain_bound a : forall h st, zpath st -> length st <= h ->
  local_run tb (h * S F) st None a <> TFuel.
Proof.
  induction h as [|h IH]; intros st Hz Hlen.
  - destruct Hz; simpl in Hlen; lia.
  - inversion Hz as [E|s s' X rest Hz1 Hpast Hs' Hsucc E].
    + apply (local_run_more tb a (S F)); [cbn [Nat.mul]; lia|].
      apply phase_ok_run. exact term_bottom_ok.
    + subst st.
      pose proof (phase_ok_run _ _ a (term_pair_ok s (Z.of_nat s') (zpath_lt _ _ Hz1) Hsucc)) as Hph.
      pose proof (phase_embed a (Z.of_nat s) rest (h * S F)) as Hemb.
      replace (S h * S F) with (S F + h * S F) by (cbn [Nat.mul]; lia).
      apply (Hemb) with (rel := [Z.of_nat s']); auto.
      intros st' Hz' Hl'. apply IH; auto. cbn [length] in Hlen. lia.
Qed.

Lemma chain_bound_len a st f : zpath st -> length st * S F <= f ->
  local_run tb f st None a <> TFuel.
Proof.
  intros Hz Hf. apply (local_run_more tb a (length st * S F)); auto.
  apply chain_bound; auto.
Qed.

Definition pendq (s : pstate) : nat := if (qla s =? -1)%Z then 0 else 1.
(* m2 orders the iterations of the main loop.  m3 leaves out the bit "shifted since
   the last recovery" of measure: it bounds the reading loops of _recover, which
   do not touch that bit. *)
Definition m3 (s : pstate) : nat := 2 * remaining s + pendq s.
Definition m2 (s : pstate) : nat := 2 * measure s + pendq s.
Definition states (s : pstate) : list Z := map i_state (stack s).

Lemma read_m3 x x' : read_token tb x = Some x' ->
  m3 x' <= m3 x /\ ((la x =? EOF)%Z = false -> m3 x' < m3 x).
Proof.
  intros Hrd. destruct (read_rem tb _ _ Hrd) as (H1 & H2 & H3).
  unfold m3, pendq. rewrite H2. cbn [Z.eqb Pos.eqb].
  destruct (qla x =? -1)%Z eqn:Eq; [|split; [lia|intros _; lia]].
  apply Z.eqb_eq in Eq. split; [lia|]. intros Hla. specialize (H3 Eq Hla). lia.
Qed.

Lemma reads_m3 x x' : reads tb x x' -> m3 x' <= m3 x.
Proof.
  induction 1 as [|x x1 x2 Hrd _ IH]; [auto|]. pose proof (proj1 (read_m3 _ _ Hrd)). lia.
Qed.

Lemma skip_errors_halts : forall n s, m3 s < n -> skip_errors tb n s <> Fuel.
Proof.
  induction n as [|n IH]; intros s Hn; [lia|]. cbn [skip_errors].
  destruct (la s =? ERROR)%Z eqn:E; [|discriminate].
  destruct (read_token tb s) as [s'|] eqn:Hrd; [|discriminate].
  apply IH. assert (Hla : (la s =? EOF)%Z = false).
  { apply Z.eqb_eq in E. rewrite E. reflexivity. }
  pose proof (proj2 (read_m3 _ _ Hrd) Hla). lia.
Qed.

Lemma drop_if_stuck_halts n s : m3 s < n -> drop_if_stuck tb n s <> Fuel.
Proof.
  intros Hn. unfold drop_if_stuck. destruct (shifts s =? rec_shifts s)%Z; [|discriminate].
  destruct (la s =? EOF)%Z; [discriminate|].
  destruct (read_token tb s) as [s'|] eqn:Hrd; [|discriminate].
  apply skip_errors_halts. pose proof (proj1 (read_m3 _ _ Hrd)). lia.
Qed.

Lemma recover_pops_nofuel look f : forall cs e,
  (cs = [] \/ zpath (map i_state cs)) -> length cs * S F <= f ->
  recover_pops tb f cs look e <> PFuel.
Proof.
  induction cs as [|top cs IH]; intros e Hz Hf; cbn [recover_pops]; [discriminate|].
  destruct Hz as [Hz|Hz]; [discriminate|].
  assert (Hsim : recover_sim tb f (map i_state (top :: cs)) look <> SimFuel).
  { apply sim_of_local. apply chain_bound_len; [exact Hz|]. rewrite map_length. exact Hf. }
  destruct (recover_sim tb f (map i_state (top :: cs)) look); try discriminate; [|congruence].
  apply IH.
  - cbn [map] in Hz. destruct (zpath_tail _ _ Hz) as [E|Hz']; auto.
    left. destruct cs; [reflexivity|discriminate].
  - cbn [length] in Hf. lia.
Qed.

Lemma recover_outer_halts : forall n s e f, zpath (states s) -> m3 s < n ->
  n + length (stack s) * S F <= f -> recover_outer tb f e s <> Fuel.
Proof.
  induction n as [|n IH]; intros s e f Hz Hn Hf; [lia|].
  destruct f as [|f]; [lia|]. cbn [recover_outer].
  pose proof (recover_pops_nofuel (la s) (S f) (stack s) e (or_intror Hz)) as Hp.
  destruct (recover_pops tb (S f) (stack s) (la s) e) as [st' e'|e'| |]; try discriminate.
  - destruct (la s =? EOF)%Z eqn:Hla; [discriminate|].
    destruct (read_token tb s) as [s'|] eqn:Hrd; [|discriminate].
    pose proof (proj2 (read_m3 _ _ Hrd) Hla) as Hm.
    pose proof (read_token_stack tb _ _ Hrd) as Hst.
    apply IH; unfold states; rewrite ?Hst; auto; lia.
  - exfalso. apply Hp; [lia|reflexivity].
Qed.

(* the three stages of _recover share one fuel: one that covers the input still
   to be read and one scan of the whole stack is enough, since reads leave the
   stack alone *)
Lemma recover_halts s f : zpath (states s) -> S (m3 s) + length (stack s) * S F <= f ->
  recover tb f s <> Fuel.
Proof.
  intros Hz Hf. unfold recover.
  destruct (match lasym s with VErr _ _ => Some (lasym s) | _ => make_error tb s end) as [e|];
    [|discriminate].
  destruct (skip_errors tb f s) as [s1| | | |] eqn:E1; try discriminate;
    [|intros _; apply (skip_errors_halts f s); [lia|exact E1]].
  pose proof (skip_errors_reads tb _ _ _ E1) as R1.
  destruct (drop_if_stuck tb f s1) as [s2| | | |] eqn:E2; try discriminate;
    [|intros _; apply (drop_if_stuck_halts f s1); [pose proof (reads_m3 _ _ R1); lia|exact E2]].
  pose proof (reads_trans tb _ _ _ R1 (drop_if_stuck_reads tb _ _ _ E2)) as R2.
  pose proof (reads_m3 _ _ R2) as Hm. pose proof (proj1 (reads_frame tb _ _ R2)) as Hst.
  apply (recover_outer_halts (S (m3 s2))); [unfold states; rewrite Hst; exact Hz|lia|rewrite Hst; lia].
Qed.

Variable eb : bool.
Variable discard : value -> bool.
Variable rec : bool.
Notation pstep' := (pstep tb eb rec discard).
Notation ploop' := (ploop tb eb rec discard).

Definition LInv (s : pstate) : Prop :=
  zpath (states s) /\ (qla s <> (-1)%Z -> la s = ERROR).

Lemma linv_top s : LInv s -> exists top st0, peek (stack s) 0 = Some top /\ states s = i_state top :: st0.
Proof.
  intros [Hz _]. destruct (zpath_top _ Hz) as (st & rest & E & _). unfold states in *.
  destruct (stack s) as [|top r]; [discriminate|]. exists top, (map i_state r). auto.
Qed.

Lemma step_recover f s s' : LInv s -> recover tb f s = Continue s' -> LInv s' /\ m2 s' < m2 s.
Proof.
  intros [Hz Hq] H. split; [split|].
  - (* _recover hands back a non-empty suffix of the stack *)
    pose proof (recover_view tb f s) as Hv. rewrite H in Hv.
    destruct Hv as (e & s1 & s3 & n & e' & _ & _ & _ & _ & _ & Hn & ->).
    unfold states in *. cbn [set_shifts set_la set_stack stack]. rewrite <- skipn_map.
    apply zpath_skipn; auto. rewrite map_length. exact Hn.
  - intros _. destruct (recover_reports tb _ _ _ H) as (e0 & _ & Hla & _). exact Hla.
  - pose proof (recover_measure tb _ _ _ H Hq) as Hm. unfold m2, pendq.
    destruct (qla s' =? -1)%Z; destruct (qla s =? -1)%Z; lia.
Qed.

Lemma step_shift s s' top st0 v b :
  LInv s -> states s = top :: st0 -> find (t_actions tb) top (la s) = FFound v ->
  v <> accept_code -> (0 <= v)%Z ->
  read_token tb (shift_state s v b) = Some s' -> LInv s' /\ m2 s' < m2 s.
Proof.
  intros [Hz Hq] Hst Hf Hna Hv Hrd. rewrite Hst in Hz.
  destruct (zpath_shift _ _ _ _ Hz Hf Hv Hna) as [Hz' Hla].
  destruct (shift_measure tb s v b s' Hq Hla Hrd) as [Hq' Hm].
  split; [split|].
  - unfold states. rewrite (read_token_stack tb _ _ Hrd), (proj1 (shift_state_frame s v b)).
    cbn [map i_state]. fold (states s). rewrite Hst. exact Hz'.
  - intros Hc. contradiction.
  - unfold m2, pendq. rewrite Hq'. cbn [Z.eqb Pos.eqb]. destruct (qla s =? -1)%Z; lia.
Qed.

(* a reducing iteration is one round of local_run on the state numbers *)
Lemma step_reduce f k s s' top st0 v :
  zpath (states s) -> peek (stack s) 0 = Some top -> states s = i_state top :: st0 ->
  find (t_actions tb) (i_state top) (la s) = FFound v -> (v < 0)%Z ->
  pstep' f s = Continue s' ->
  zpath (states s') /\ m2 s' = m2 s /\ la s' = la s /\ qla s' = qla s /\
  local_run tb (S k) (states s) None (la s) = local_run tb k (states s') None (la s).
Proof.
  intros Hz Hpk Hst Hf Hv H. rewrite (pstep_found tb eb discard rec f s top v Hpk Hf) in H.
  destruct (do_action_continue _ _ _ _ _ _ H)
    as [(_ & Hge & _)|(_ & tc & rule & res & top' & r & ns & Htc & Hrule & _ & _ & _ & Hsk & Hg & ->)]; [lia|].
  match goal with |- context [red_state _ _ ?p ?res ?b ?ns ?st] =>
    destruct (red_state_frame eb s p res b ns st) as (F1 & F2 & _ & F4 & _ & F6 & _ & _ & F9 & F10) end.
  destruct (zpath_reduce _ _ _ _ _ _ _ Hz Hst Hf Hv Htc Hrule)
    as (Htc0 & Hlen & ex' & rest' & ns' & Hsk' & Hg' & Hz').
  unfold states in Hsk'. rewrite skipn_map, Hsk in Hsk'. cbn [map] in Hsk'. inversion Hsk'; subst ex' rest'.
  assert (ns' = ns) as ->.
  { destruct Hg as [Hg|[Hg _]]; rewrite Hg in Hg'; [inversion Hg'; reflexivity|discriminate]. }
  assert (Hs' : states (red_state eb s (- v) res _ ns (top' :: r)) = ns :: i_state top' :: map i_state r)
    by (unfold states; rewrite F1; reflexivity).
  rewrite Hs'. repeat split; auto.
  - unfold m2, pendq, measure, remaining, stuck. rewrite F2, F4, F6, F9, F10. reflexivity.
  - eapply local_step; eauto. unfold states. rewrite skipn_map, Hsk. reflexivity.
Qed.

Lemma pstep_progress f s s' : LInv s -> pstep' f s = Continue s' ->
  LInv s' /\
  (m2 s' < m2 s \/
   (m2 s' = m2 s /\ la s' = la s /\
    forall k, local_run tb (S k) (states s) None (la s) = local_run tb k (states s') None (la s))).
Proof.
  intros HI H. destruct (linv_top s HI) as (top & st0 & Hpk & Hst).
  pose proof H as H0. rewrite pstep_eq, Hpk in H0.
  destruct (find (t_actions tb) (i_state top) (la s)) as [v| |] eqn:Hf; [| |discriminate].
  - destruct (do_action_continue _ _ _ _ _ _ H0) as [(Hna & Hv & b & _ & Hrd)|(Hv & _)].
    + destruct (step_shift s s' _ _ v b HI Hst Hf Hna Hv Hrd). auto.
    + destruct (step_reduce f 0 s s' top st0 v (proj1 HI) Hpk Hst Hf Hv H) as (Hz' & Hm & Hla & Hq & _).
      split; [split; auto; rewrite Hla, Hq; exact (proj2 HI)|]. right. repeat split; auto.
      intros k. apply (step_reduce f k s s' top st0 v (proj1 HI) Hpk Hst Hf Hv H).
  - destruct rec; [|discriminate]. destruct (step_recover f s s' HI H0). auto.
Qed.

Lemma pstep_halts s : LInv s -> exists M, pstep' M s <> Fuel.
Proof.
  intros HI. exists (S (m3 s) + length (stack s) * S F). rewrite pstep_eq.
  destruct (peek (stack s) 0) as [top|]; [|discriminate].
  destruct (find (t_actions tb) (i_state top) (la s)) as [v| |]; [apply do_action_not_fuel| |discriminate].
  destruct rec; [|discriminate]. apply recover_halts; [exact (proj1 HI)|lia].
Qed.

(* every iteration names a fuel M that is enough for it; the one fuel they
   share comes from monotonicity in the fuel (halts_ploop) *)
Inductive halts : pstate -> Prop :=
| halts_intro s M : pstep' M s <> Fuel -> (forall s', pstep' M s = Continue s' -> halts s') -> halts s.

Lemma halts_ploop s : halts s -> exists N, ploop' N s <> Fuel.
Proof.
  induction 1 as [s M Hnf Hnext IH].
  assert (HM : forall N, M <= N -> pstep' N s = pstep' M s)
    by (intros N HN; apply (pstep_mono tb eb discard rec M N); auto).
  destruct (pstep' M s) as [s1| | | |] eqn:E; try congruence;
    try (exists (S M); rewrite ploop_unfold, HM by lia; discriminate).
  destruct (IH s1 eq_refl) as (N & HN). exists (S (Nat.max M N)).
  rewrite ploop_unfold, HM by lia.
  rewrite (ploop_mono_rec tb eb discard rec N (Nat.max M N) s1 _ ltac:(lia) HN eq_refl). exact HN.
Qed.

Lemma halts_inner n :
  (forall s, LInv s -> m2 s < n -> halts s) ->
  forall K s, LInv s -> m2 s <= n -> local_run tb K (states s) None (la s) <> TFuel -> halts s.
Proof.
  intros Hout. induction K as [|K IH]; intros s HI Hm HK; [simpl in HK; congruence|].
  destruct (pstep_halts s HI) as (M & HM). apply (halts_intro s M HM). intros s' Hs'.
  destruct (pstep_progress M s s' HI Hs') as [HI' [Hlt|(Heq & Hla & Hrun)]].
  - apply Hout; auto. lia.
  - apply IH; auto; [lia|]. rewrite Hla, <- Hrun. exact HK.
Qed.

Lemma linv_halts : forall n s, LInv s -> m2 s < n -> halts s.
Proof.
  induction n as [|n IH]; intros s HI Hm; [lia|].
  apply (halts_inner n IH (length (states s) * S F) s HI); [lia|].
  apply chain_bound_len; [exact (proj1 HI)|lia].
Qed.

Lemma ploop_never_continue : forall f s s', ploop' f s <> Continue s'.
Proof. exact (RuntimeFacts.ploop_never_continue tb eb discard rec). Qed.

Lemma init_linv zw s0 : read_token tb (init_state zw) = Some s0 -> LInv s0.
Proof.
  intros Hrd. split.
  - unfold states. rewrite (read_token_stack tb _ _ Hrd). simpl. constructor.
  - rewrite (read_token_qla tb _ _ Hrd). intros Hc. contradiction.
Qed.

Theorem parse_terminates_any zw : exists fuel, parse tb eb rec discard fuel zw <> Fuel.
Proof.
  unfold parse. destruct (read_token tb (init_state zw)) as [s0|] eqn:Hrd; [|exists 0; discriminate].
  apply halts_ploop. apply (linv_halts (S (m2 s0))); [|lia]. exact (init_linv zw s0 Hrd).
Qed.

Inductive reduce_run : nat -> pstate -> pstate -> Prop :=
| rr_nil s : reduce_run 0 s s
| rr_step n f s s1 s2 top v :
    peek (stack s) 0 = Some top -> find (t_actions tb) (i_state top) (la s) = FFound v ->
    (v < 0)%Z -> pstep' f s = Continue s1 -> reduce_run n s1 s2 -> reduce_run (S n) s s2.

Lemma reduce_run_fuel n s s' : reduce_run n s s' -> zpath (states s) ->
  local_run tb n (states s) None (la s) = TFuel.
Proof.
  induction 1 as [s|n f s s1 s2 top v Hpk Hf Hv Hps Hrun IH]; intros Hz; [reflexivity|].
  assert (Hst : exists st0, states s = i_state top :: st0).
  { unfold states. destruct (stack s) as [|t0 r]; simpl in Hpk; inversion Hpk; subst. simpl. eauto. }
  destruct Hst as (st0 & Hst).
  destruct (step_reduce f n s s1 top st0 v Hz Hpk Hst Hf Hv Hps) as (Hz' & _ & Hla & _ & Hstep).
  rewrite Hstep, <- Hla. apply IH. exact Hz'.
Qed.

Theorem reduce_chain_bounded_sec s n s' :
  zpath (states s) -> reduce_run n s s' -> n < length (stack s) * (F + 1).
Proof.
  intros Hz Hrun. pose proof (reduce_run_fuel _ _ _ Hrun Hz) as Hfuel.
  destruct (le_lt_dec (length (stack s) * (F + 1)) n) as [Hle|Hlt]; [|exact Hlt].
  exfalso. apply (chain_bound_len (la s) (states s) n Hz); [|exact Hfuel].
  unfold states. rewrite map_length. replace (S F) with (F + 1) by lia. exact Hle.
Qed.

End Chain.


Theorem parse_terminates :
  forall g tb c nterm eb discard F,
    validate g tb c nterm = true ->
    term_ok tb (nstates c) F = true ->
    forall rec w, tokens1 nterm w ->
      exists fuel, parse tb eb rec discard fuel (zs w) <> Fuel.
Proof.
  intros g tb c nterm eb discard F Hval Hterm rec w _.
  exact (parse_terminates_any g tb c nterm F Hval Hterm eb discard rec (zs w)).
Qed.

Lemma parse_never_continue tb eb rec discard fuel zw s :
  parse tb eb rec discard fuel zw <> Continue s.
Proof.
  unfold parse. destruct (read_token tb (init_state zw)) as [s0|]; [|discriminate].
  apply RuntimeFacts.ploop_never_continue.
Qed.

Theorem parse_decides :
  forall g tb c nterm eb discard F,
    validate g tb c nterm = true ->
    term_ok tb (nstates c) F = true ->
    forall w, ordinary nterm w ->
      exists fuel,
        (exists s, parse tb eb false discard fuel (zs w) = Accept s /\ sentence g (tokens_of w)) \/
        (exists s, parse tb eb false discard fuel (zs w) = Reject s /\ ~ sentence g (tokens_of w)).
Proof.
  intros g tb c nterm eb discard F Hval Hterm w Hord.
  destruct (parse_terminates_any g tb c nterm F Hval Hterm eb discard false (zs w)) as (fuel & Hnf).
  exists fuel.
  destruct (parse tb eb false discard fuel (zs w)) as [s|s|s| |] eqn:E.
  - exfalso. eapply parse_never_continue; eauto.
  - left. exists s. split; [reflexivity|].
    eapply (parse_sound g tb c nterm eb discard Hval); eauto.
  - right. exists s. split; [reflexivity|]. intros Hs.
    destruct (parse_complete g tb c nterm eb discard Hval w Hord Hs) as (f2 & s2 & H2).
    pose proof (parse_det _ _ _ _ _ _ _ _ _ E H2) as Hc. discriminate Hc; discriminate.
  - exfalso. eapply (parse_no_crash g tb c nterm eb discard Hval); eauto.
  - congruence.
Qed.

(* the chain bound the argument rests on; its hypothesis zpath holds of the
   initial state and is kept by every iteration (run_stack_is_path) *)
Theorem reduce_chain_bounded :
  forall g tb c nterm eb rec discard F,
    validate g tb c nterm = true ->
    term_ok tb (nstates c) F = true ->
    forall s n s',
      zpath g tb c (map i_state (stack s)) ->
      reduce_run tb eb discard rec n s s' ->
      n < length (stack s) * (F + 1).
Proof.
  intros g tb c nterm eb rec discard F Hval Hterm s n s' Hz Hrun.
  exact (reduce_chain_bounded_sec g tb c nterm F Hval Hterm eb discard rec s n s' Hz Hrun).
Qed.

Theorem reduce_chain_bounded_states :
  forall g tb c nterm F,
    validate g tb c nterm = true ->
    term_ok tb (nstates c) F = true ->
    forall st a, zpath g tb c st -> local_run tb (length st * (F + 1)) st None a <> TFuel.
Proof.
  intros g tb c nterm F Hval Hterm st a Hz.
  apply (chain_bound_len g tb c nterm F Hval Hterm a st); [exact Hz|].
  replace (S F) with (F + 1) by lia. apply le_n.
Qed.

Theorem run_stack_is_path :
  forall g tb c nterm eb rec discard F,
    validate g tb c nterm = true ->
    term_ok tb (nstates c) F = true ->
    (forall zw s0, read_token tb (init_state zw) = Some s0 -> LInv g tb c s0) /\
    (forall f s s', LInv g tb c s -> pstep tb eb rec discard f s = Continue s' -> LInv g tb c s').
Proof.
  intros g tb c nterm eb rec discard F Hval Hterm. split.
  - intros zw s0. apply init_linv.
  - intros f s s' HI H. apply (pstep_progress g tb c nterm F Hval Hterm eb discard rec f s s' HI H).
Qed.

(* S' -> S ; S -> a   (terminals: 0 EOF, 1 @error, 2 a; rules: 0 S', 1 S)
   state 0: a -> shift 1, goto S = 2; state 1: EOF -> reduce S -> a; state 2: EOF -> accept *)
Definition g_small : grammar :=
  [ {| lhs := 0; rhs := [NT 1] |}; {| lhs := 1; rhs := [T 2] |} ].
Definition tb_small : tables :=
  {| t_actions := [3; 6; 9;  2; 2; 1;  2; 0; -1;  2; 0; accept_code]%Z;
     t_goto := [3; 6; 7;  2; 1; 2;  0;  0]%Z;
     t_rules := [0; 1]%Z; t_term_counts := [1; 1]%Z; t_kinds := [KSPrime; KUser] |}.
Definition c_small : cert :=
  {| c_items := [[(0, 0, 0); (1, 0, 0)]; [(1, 1, 0)]; [(0, 1, 0)]];
     c_nullable := [false; false]; c_first := [[2]; [2]] |}.

Example term_ok_small :
  validate g_small tb_small c_small 3 = true /\
  term_ok tb_small (nstates c_small) (term_fuel tb_small (nstates c_small)) = true /\
  term_ok tb_small (nstates c_small) 2 = true /\
  (exists s, parse tb_small true false (fun _ => false) 10 (zs [2]) = Accept s) /\
  (exists s, parse tb_small true true (fun _ => false) 10 (zs [2; 2]) = Reject s).
Proof.
  split; [vm_compute; reflexivity|]. split; [vm_compute; reflexivity|].
  split; [vm_compute; reflexivity|].
  split; eexists; vm_compute; reflexivity.
Qed.

(* state 1 under the lookahead 2 reduces production 1 (one term, rule 1) and
   goto(0, rule 1) = 1: the parser reduces for ever *)
Definition tb_cycle : tables :=
  {| t_actions := [2; 5;  2; 2; 1;  2; 2; -1]%Z;     (* state 0: 2 -> shift 1; state 1: 2 -> reduce 1 *)
     t_goto := [2; 5;  2; 1; 1;  0]%Z;               (* state 0: rule 1 -> 1 *)
     t_rules := [0; 1]%Z; t_term_counts := [1; 1]%Z; t_kinds := [KSPrime; KUser] |}.

Example term_ok_detects_cycle :
  term_ok tb_cycle 2 (term_fuel tb_cycle 2) = false /\
  term_ok tb_cycle 2 1000 = false /\
  parse tb_cycle false false (fun _ => false) 200 [2; 2]%Z = Fuel.
Proof. repeat split; vm_compute; reflexivity. Qed.

Print Assumptions parse_terminates.
Print Assumptions parse_decides.
Print Assumptions reduce_chain_bounded.
Print Assumptions reduce_chain_bounded_states.
Print Assumptions run_stack_is_path.
Print Assumptions term_ok_small.
Print Assumptions term_ok_detects_cycle.
