(* The token at which the (clean) parser finds no action really is an error:
   the input read so far, including that token, is not a prefix of any sentence.
   This is the state in which the recovering parser first calls _recover, whose
   Error value carries exactly that token (Recovery.recover_errsym_token). *)
From Coq Require Import List ZArith Lia.
From Lox Require Import Parse.Grammar Parse.Tables Parse.Validator
  Parse.LRAbstract Parse.ValidatorFacts Parse.ParseRuntime Parse.RuntimeFacts Parse.Refine Parse.Complete Parse.Sound
  Parse.Recovery Parse.RecoveryFacts Parse.RecoverySound.
Import ListNotations.

Definition viable_prefix (g : grammar) (u : list nat) : Prop :=
  exists v toks X t, start_sym g = Some X /\ wt g X t toks /\ map fst toks = u ++ v.

Section Frame.
Variable g : grammar.
Variable action : nat -> nat -> option Validator.act.
Variable goto_ : nat -> nat -> option nat.

Definition inp_of (x : cfg) : list token := snd (fst x).

Lemma astep_len n x y : astep g action goto_ n x = ANext y -> length (inp_of y) <= length (inp_of x).
Proof.
  destruct x as [[stk inp] tr]. unfold astep.
  destruct (action (topst stk) (la_of inp)) as [[s'|p|]|]; try discriminate.
  - destruct inp; intros H; inversion H; subst; unfold inp_of; simpl; lia.
  - destruct (nth_error g p) as [pr|]; [|discriminate].
    destruct (LRAbstract.pop (length (rhs pr)) stk) as [[ch rest]|]; [|discriminate].
    destruct (goto_ (topst rest) (lhs pr)); [|discriminate].
    intros H; inversion H; subst; unfold inp_of; simpl; lia.
Qed.

Lemma reach_len n x y : reach g action goto_ n x y -> length (inp_of y) <= length (inp_of x).
Proof. induction 1 as [x|x1 x2 x3 Hs Hr IH]; auto. apply astep_len in Hs. lia. Qed.

Lemma astep_frame n1 n2 stk a q r1 r2 tr :
  match astep g action goto_ n1 (stk, (a :: q) ++ r1, tr) with
  | ANext (stk', inp', tr') =>
      exists q', inp' = q' ++ r1 /\
                 astep g action goto_ n2 (stk, (a :: q) ++ r2, tr) = ANext (stk', q' ++ r2, tr')
  | AAcc => astep g action goto_ n2 (stk, (a :: q) ++ r2, tr) = AAcc
  | ARej => astep g action goto_ n2 (stk, (a :: q) ++ r2, tr) = ARej
  | AStuck => astep g action goto_ n2 (stk, (a :: q) ++ r2, tr) = AStuck
  end.
Proof.
  unfold astep. destruct a as [t i]. simpl.
  destruct (action (topst stk) t) as [[s'|p|]|]; auto.
  - exists q. auto.
  - destruct (nth_error g p) as [pr|]; auto.
    destruct (LRAbstract.pop (length (rhs pr)) stk) as [[ch rest]|]; auto.
    destruct (goto_ (topst rest) (lhs pr)); auto.
    exists ((t, i) :: q). auto.
Qed.

Lemma reach_frame n1 n2 x y : reach g action goto_ n1 x y ->
  forall stk q r1 r2 tr, x = (stk, q ++ r1, tr) -> length r1 < length (inp_of y) ->
  exists q', inp_of y = q' ++ r1 /\
             reach g action goto_ n2 (stk, q ++ r2, tr) (fst (fst y), q' ++ r2, snd y).
Proof.
  induction 1 as [x|x1 x2 x3 Hs Hr IH]; intros stk q r1 r2 tr -> Hlen.
  - exists q. simpl. split; auto. apply reach_refl.
  - pose proof (reach_len _ _ _ Hr) as Hl23. pose proof (astep_len _ _ _ Hs) as Hl12.
    destruct q as [|a q].
    { unfold inp_of in *. simpl in *. lia. }
    pose proof (astep_frame n1 n2 stk a q r1 r2 tr) as Hf. rewrite Hs in Hf.
    destruct x2 as [[stk2 inp2] tr2]. destruct Hf as (q2 & -> & Hs2).
    destruct (IH stk2 q2 r1 r2 tr2 eq_refl Hlen) as (q' & Hq' & Hreach).
    exists q'. split; auto. eapply reach_step; eauto.
Qed.

Lemma reach_rej_frame n1 n2 stk q r1 r2 tr y :
  reach g action goto_ n1 (stk, q ++ r1, tr) y -> astep g action goto_ n1 y = ARej ->
  length r1 < length (inp_of y) ->
  exists y', reach g action goto_ n2 (stk, q ++ r2, tr) y' /\ astep g action goto_ n2 y' = ARej.
Proof.
  intros Hr Hrej Hlen.
  destruct (reach_frame n1 n2 _ _ Hr stk q r1 r2 tr eq_refl Hlen) as (q' & Hq' & Hr').
  destruct y as [[stk' inp'] tr']. unfold inp_of in Hq', Hlen. cbn [fst snd] in Hq', Hlen, Hr'. subst inp'.
  destruct q' as [|a q0]; [simpl in Hlen; lia|].
  pose proof (astep_frame n1 n2 stk' a q0 r1 r2 tr') as Hf. rewrite Hrej in Hf. eauto.
Qed.

End Frame.

Section Blame.
Variable g : grammar.
Variable tb : tables.
Variable c : cert.
Variable nterm : nat.
Variable eb : bool.
Variable discard : value -> bool.
Hypothesis Hval : validate g tb c nterm = true.

Notation act' := (action_of tb).
Notation goto' := (goto_of tb).

Lemma wt_tok_ok :
  (forall X t u, wt g X t u -> (forall t0, X = T t0 -> t0 < nterm) -> Forall (tok_ok nterm) u) /\
  (forall Xs ts us, wf g Xs ts us -> (forall t0, In (T t0) Xs -> t0 < nterm) -> Forall (tok_ok nterm) us).
Proof.
  apply wt_wf_ind.
  - intros t i H. constructor; [|constructor]. unfold tok_ok. simpl. apply H. reflexivity.
  - intros p pr ch u Hp Hwf IH _. apply IH. intros t0 Hin.
    eapply (val_rhs_lt g tb c nterm Hval); eauto.
  - intros _. constructor.
  - intros X t u Xs ts us Ht IHt Hf IHf H. apply Forall_app. split.
    + apply IHt. intros t0 ->. apply H. left. reflexivity.
    + apply IHf. intros t0 Hin. apply H. right. exact Hin.
Qed.

Lemma start_tok_lt X t0 : start_sym g = Some X -> X = T t0 -> t0 < nterm.
Proof.
  intros Hs ->. destruct (val_start g tb c nterm Hval) as (pr0 & X' & Hp0 & Hr).
  unfold start_sym in Hs. rewrite Hp0, Hr in Hs. inversion Hs; subst.
  eapply (val_rhs_lt g tb c nterm Hval); eauto. rewrite Hr. left. reflexivity.
Qed.

Lemma ploop_reject_abs w fuel : forall s stk inp tr s',
  R tb c nterm discard w stk inp tr s -> Sound.Inv g c w (stk, inp, tr) ->
  ploop tb eb false discard fuel s = Reject s' ->
  exists stk' inp' tr',
    reach g act' goto' (length w) (stk, inp, tr) (stk', inp', tr') /\
    astep g act' goto' (length w) (stk', inp', tr') = ARej /\
    R tb c nterm discard w stk' inp' tr' s'.
Proof.
  induction fuel as [|f IH]; intros s stk inp tr s' HR HI H; [discriminate|].
  rewrite ploop_unfold in H.
  pose proof (sim_step g tb c nterm eb discard Hval w (S f) stk inp tr s HR) as Hsim.
  pose proof (inv_step g tb c nterm Hval w _ HI) as Hstep.
  destruct (astep g act' goto' (length w) (stk, inp, tr)) as [[[stk1 inp1] tr1]| | |] eqn:Ea.
  - destruct Hsim as (s1 & Hp & HR1). rewrite Hp in H.
    destruct (IH _ _ _ _ _ HR1 Hstep H) as (stk' & inp' & tr' & Hreach & Hrej & HR').
    exists stk', inp', tr'. split; auto. eapply reach_step; eauto.
  - rewrite Hsim in H. discriminate.
  - rewrite Hsim in H. inversion H; subst.
    exists stk, inp, tr. split; [apply reach_refl|]. auto.
  - destruct Hstep.
Qed.

Theorem reject_not_sentence : forall w fuel s, ordinary nterm w ->
  parse tb eb false discard fuel (zs w) = Reject s -> ~ sentence g (tokens_of w).
Proof.
  intros w fuel s Hord Hrej Hsent.
  destruct (parse_complete g tb c nterm eb discard Hval w Hord Hsent) as (fuel' & s' & Hacc).
  pose proof (parse_det _ _ _ _ _ _ _ _ _ Hrej Hacc) as Hc. discriminate Hc; discriminate.
Qed.

(* pos s tokens have been read; the last one is the lookahead without action *)
Theorem blame_not_viable : forall w fuel s, ordinary nterm w ->
  parse tb eb false discard fuel (zs w) = Reject s ->
  (la s <> 0%Z -> ~ viable_prefix g (firstn (pos s) w)) /\
  (la s = 0%Z -> ~ sentence g (tokens_of w)).
Proof.
  intros w fuel s Hord Hrej. split; [|intros _; eapply reject_not_sentence; eauto].
  intros Hla (v & toks & X & t & Hs & Ht & Hm).
  destruct (R_init tb c nterm discard w Hord) as (s0 & Hrd & HR0).
  unfold parse in Hrej. rewrite Hrd in Hrej.
  destruct (ploop_reject_abs w fuel s0 [] (tokens_of w) [] s HR0) as
    (stk' & inp' & tr' & Hreach & Hstep & HR'); auto.
  { split; [constructor|reflexivity]. }
  destruct (R_la _ _ _ _ _ _ _ _ _ HR') as (i & l & Hinp & Hlen & Hordl & Hla' & Hsym & Hin & Hpos).
  destruct l as [|a l]; [simpl in Hla'; contradiction|].
  simpl in Hlen. assert (Hi : i < length w) by lia.
  assert (Hpos' : pos s = S i) by lia. rewrite Hpos' in Hm.
  set (pre := firstn (S i) w) in *. set (rst := skipn (S i) w).
  assert (Hpre_len : length pre = S i) by (apply firstn_length_le; lia).
  assert (Hw : tokens_of w = tokens_from 0 pre ++ tokens_from (S i) rst).
  { change (tokens_of w) with (tokens_from 0 w).
    rewrite <- (firstn_skipn (S i) w) at 1. rewrite tokens_from_app. fold pre. rewrite Hpre_len.
    reflexivity. }
  destruct (proj1 (wt_relabel g) _ _ _ Ht (tokens_from 0 (pre ++ v))) as (t2 & Ht2).
  { rewrite map_fst_tokens_from. symmetry. exact Hm. }
  rewrite tokens_from_app, Hpre_len in Ht2. cbn [Nat.add] in Ht2.
  assert (Hok : Forall (tok_ok nterm) (tokens_from 0 pre ++ tokens_from (S i) v)).
  { apply (proj1 wt_tok_ok _ _ _ Ht2). intros t0. apply start_tok_lt. exact Hs. }
  destruct (abstract_accept_gen g tb c nterm Hval 0 X t2 _ Hs Ht2 Hok) as (s' & Hreach2 & Hacc2).
  rewrite Hw in Hreach.
  assert (Hl1 : length (tokens_from (S i) rst) < length inp').
  { rewrite Hinp, !tokens_from_length. unfold rst. rewrite skipn_length. simpl. lia. }
  destruct (reach_rej_frame g act' goto' (length w) 0 [] (tokens_from 0 pre) (tokens_from (S i) rst)
              (tokens_from (S i) v) [] _ Hreach Hstep Hl1) as (y' & Hreach' & Hrej').
  (* the machine is deterministic: both runs end in the same configuration *)
  assert (E : ([(s', t2)], [], rev (reds t2)) = y').
  { eapply reach_det; [exact Hreach2|exact Hreach'|..]; intros y Hy; congruence. }
  subst y'. congruence.
Qed.


Lemma pstep_clean_continue f f' s s1 :
  pstep tb eb false discard f s = Continue s1 -> pstep tb eb true discard f' s = Continue s1.
Proof.
  rewrite !pstep_eq. destruct (peek (stack s) 0) as [top|]; auto.
  destruct (find (t_actions tb) (i_state top) (la s)); auto. discriminate.
Qed.

Lemma pstep_clean_reject f f' s s' :
  pstep tb eb false discard f s = Reject s' ->
  s' = s /\ pstep tb eb true discard f' s = recover tb f' s.
Proof.
  rewrite !pstep_eq. destruct (peek (stack s) 0) as [top|]; [|discriminate].
  destruct (find (t_actions tb) (i_state top) (la s)) as [v| |]; [|inversion 1; auto|discriminate].
  intros H. pose proof (do_action_outcome tb eb discard s v) as Ho. rewrite H in Ho. destruct Ho.
Qed.

Lemma ploop_first_recover f : forall s0 s,
  ploop tb eb false discard f s0 = Reject s ->
  exists n, forall k,
    ploop tb eb true discard (n + S k) s0 =
    match recover tb (S k) s with
    | Continue s' => ploop tb eb true discard k s'
    | o => o
    end.
Proof.
  induction f as [|f IH]; intros s0 s H; [discriminate|].
  rewrite ploop_unfold in H.
  destruct (pstep tb eb false discard (S f) s0) as [s1|s1|s1| |] eqn:E; try discriminate.
  - destruct (IH _ _ H) as (n & Hn). exists (S n). intros k.
    change (S n + S k) with (S (n + S k)). rewrite ploop_unfold.
    rewrite (pstep_clean_continue _ (S (n + S k)) _ _ E). apply Hn.
  - inversion H; subst s1. exists 0. intros k. cbn [Nat.add]. rewrite ploop_unfold.
    destruct (pstep_clean_reject _ (S k) _ _ E) as [Heq Hp]. subst s. rewrite Hp. reflexivity.
Qed.

Lemma pstep_clean_shifts f s s' : pstep tb eb false discard f s = Continue s' ->
  rec_shifts s' = rec_shifts s /\ (shifts s <= shifts s')%Z.
Proof.
  rewrite pstep_eq. destruct (peek (stack s) 0) as [top|]; [|discriminate].
  destruct (find (t_actions tb) (i_state top) (la s)) as [v| |]; try discriminate.
  intros H. apply do_action_continue in H
    as [(_ & _ & b & _ & Hrd)|(_ & tc & rule & res & top' & r & ns & _ & _ & _ & _ & _ & _ & _ & ->)].
  - destruct (read_token_frame _ _ _ Hrd) as (_ & _ & H1 & H2).
    destruct (shift_state_frame s v b) as (_ & _ & _ & _ & _ & _ & _ & _ & F1 & F2).
    rewrite H1, H2, F1, F2. destruct (la s =? ERROR)%Z; split; auto; lia.
  - match goal with |- context [red_state _ _ ?p ?res ?b ?ns ?st] =>
      destruct (red_state_frame eb s p res b ns st) as (_ & _ & _ & _ & _ & _ & _ & _ & F1 & F2) end.
    rewrite F1, F2. split; auto; lia.
Qed.

Lemma ploop_clean_shifts f : forall s0 s, ploop tb eb false discard f s0 = Reject s ->
  rec_shifts s = rec_shifts s0 /\ (shifts s0 <= shifts s)%Z.
Proof.
  induction f as [|f IH]; intros s0 s H; [discriminate|].
  rewrite ploop_unfold in H.
  destruct (pstep tb eb false discard (S f) s0) as [s1|s1|s1| |] eqn:E; try discriminate.
  - destruct (IH _ _ H) as [H1 H2]. destruct (pstep_clean_shifts _ _ _ E) as [H3 H4].
    split; [congruence|lia].
  - destruct (pstep_clean_reject _ 0 _ _ E) as [Heq _]. inversion H; subst. split; auto. lia.
Qed.

(* With recovery enabled the run is the clean run up to the rejecting state s,
   where _recover is entered; the Error it builds wraps the lookahead token of s,
   i.e. (blame_not_viable) the first token that makes the input non-viable. *)
Theorem first_error_is_blame : forall w fuel s, ordinary nterm w ->
  parse tb eb false discard fuel (zs w) = Reject s ->
  (exists n, forall k,
     parse tb eb true discard (n + S k) (zs w) =
     match recover tb (S k) s with
     | Continue s' => ploop tb eb true discard k s'
     | o => o
     end) /\
  (exists id ks, lasym s = VTok (la s) id /\
                 recover_errsym tb s = Some (VErr (VTok (la s) id) ks)) /\
  (* nothing is dropped by drop_if_stuck at this first recovery *)
  (rec_shifts s = (-1)%Z /\ (0 <= shifts s)%Z /\
   forall f, recover tb f s =
     match recover_errsym tb s with
     | None => Crash
     | Some e => match skip_errors tb f s with
                 | Continue s1 => recover_outer tb f e s1
                 | o => o
                 end
     end).
Proof.
  intros w fuel s Hord Hrej.
  destruct (R_init tb c nterm discard w Hord) as (s0 & Hrd & HR0).
  unfold parse in *. rewrite Hrd in *.
  assert (Hsh : rec_shifts s = (-1)%Z /\ (0 <= shifts s)%Z).
  { destruct (ploop_clean_shifts _ _ _ Hrej) as [H1 H2].
    destruct (read_token_frame _ _ _ Hrd) as (_ & _ & H3 & H4). cbn in H3, H4. split; [congruence|lia]. }
  split; [|split].
  3:{ destruct Hsh as [H1 H2]. repeat split; auto. intros f. apply recover_first. lia. }
  - apply ploop_first_recover in Hrej. exact Hrej.
  - destruct (ploop_reject_abs w fuel s0 [] (tokens_of w) [] s HR0) as
      (stk' & inp' & tr' & _ & _ & HR'); auto.
    { split; [constructor|reflexivity]. }
    destruct (R_la _ _ _ _ _ _ _ _ _ HR') as (i & l & _ & _ & _ & _ & Hsym & _).
    destruct (stack_rel_top g tb c nterm discard Hval _ _ (R_stack _ _ _ _ _ _ _ _ _ HR'))
      as (top & Hpk & Htop & Hlt).
    destruct (make_error_some g tb c nterm Hval s _ _ top Hsym Hpk) as (ks & Hk).
    { exists (topst stk'). auto. }
    exists i, ks. split; auto. unfold recover_errsym. rewrite Hsym in *. exact Hk.
Qed.

Theorem recovering_run_without_error_is_clean :
  start_sym g <> Some (T error_t) ->
  forall w fuel s, ordinary nterm w ->
  parse tb eb true discard fuel (zs w) = Accept s ->
  (forall p pr res, In (ERed (Z.of_nat p) res) (trace s) -> nth_error g p = Some pr ->
                    ~ In (T error_t) (rhs pr)) ->
  parse tb eb false discard fuel (zs w) = Accept s.
Proof.
  intros Hstart w fuel s Hord Hacc Hnoerr.
  destruct (nonsentence_reports g tb c nterm eb discard Hval Hstart w fuel s Hord Hacc)
    as [(p & pr & res & Hin & Hp & Hr)|Hsent].
  { exfalso. eapply Hnoerr; eauto. }
  destruct (parse_complete g tb c nterm eb discard Hval w Hord Hsent) as (fuel' & s' & Hacc').
  destruct (parse tb eb false discard fuel (zs w)) as [s1|s1|s1| |] eqn:E;
    try (apply parse_clean_agree in E; [congruence|discriminate]).
  pose proof (parse_det _ _ _ _ _ _ _ _ _ E Hacc') as Hc. discriminate Hc; discriminate.
Qed.

End Blame.

Print Assumptions reject_not_sentence.
Print Assumptions blame_not_viable.
Print Assumptions first_error_is_blame.
Print Assumptions recovering_run_without_error_is_clean.
