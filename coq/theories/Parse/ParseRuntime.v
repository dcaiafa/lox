(* Exact mirror of the generated parser's run-time code
   (internal/codegen/emit_parser.go: parse, _readToken, _recover, _makeError,
   _act, the _onBounds bookkeeping; emit_base.go: _Stack).
   The user-callable recoverLookahead (it writes _la and _qla) is not modelled.
   Every Go panic (index out of range, slicing below zero, failed single-value
   type assertion, panic("unreachable")) is the explicit Crash outcome. *)
From Coq Require Import List ZArith Bool.
From Lox Require Import Parse.Tables.
Import ListNotations.
Local Open Scope Z_scope.

Definition EOF : Z := 0.
Definition ERROR : Z := 1.

Inductive value :=
| VNil                                       (* untyped nil *)
| VTok (ty : Z) (id : nat)                   (* a Token from the lexer *)
| VErr (tok : value) (expected : list Z)     (* Error{Token, Expected} *)
| VNode (p : Z) (args : list value)          (* result of the user action of production p *)
| VList (l : list value)                     (* slice built by a generated rule *)
| VZero.                                     (* zero value of the rule's Go type *)

Record bounds := { b_begin : value; b_end : value; b_empty : bool }.
Definition no_bounds := {| b_begin := VNil; b_end := VNil; b_empty := false |}.

Record sitem := { i_state : Z; i_sym : value; i_bounds : bounds }.

Inductive event :=
| ERed (p : Z) (res : value)                   (* _act(prod) returned res *)
| EBounds (res : value) (b e : value).         (* _onBounds(res, begin, end) *)

Record pstate := {
  stack : list sitem;          (* top first *)
  la : Z; lasym : value;
  qla : Z; qlasym : value;
  input : list Z;              (* token types still to be returned by ReadToken *)
  pos : nat;                   (* number of tokens returned so far *)
  trace : list event;          (* most recent first *)
  shifts : Z;                  (* _shifts: input tokens shifted so far *)
  rec_shifts : Z;              (* _recoverShifts: value of shifts at the last successful recovery, -1 = never *)
}.

Section Runtime.
Variable tb : tables.
Variable emit_bounds : bool.
Variable rec_enabled : bool.            (* false: a missing action rejects instead of entering _recover.
                                           Not a switch of lox (parse always calls _recover): false is how
                                           C01, C03, C16 speak of runs that never recover, and
                                           Recovery.clean_run_agrees relates the two *)
Variable discard : value -> bool.      (* the element type's Discard() method *)

Definition peek (st : list sitem) (n : nat) : option sitem := nth_error st n.

(* ReadToken of the reference driver over a finite input: the tokens in order,
   then EOF for ever. *)
Definition lex_read (s : pstate) : (Z * value) * pstate :=
  match input s with
  | [] => ((EOF, VTok EOF (pos s)), s)
  | ty :: rest =>
    ((ty, VTok ty (pos s)),
     {| stack := stack s; la := la s; lasym := lasym s; qla := qla s; qlasym := qlasym s;
        input := rest; pos := S (pos s); trace := trace s;
        shifts := shifts s; rec_shifts := rec_shifts s |})
  end.

Definition set_la (s : pstate) (l : Z) (sym : value) (q : Z) (qsym : value) : pstate :=
  {| stack := stack s; la := l; lasym := sym; qla := q; qlasym := qsym;
     input := input s; pos := pos s; trace := trace s;
     shifts := shifts s; rec_shifts := rec_shifts s |}.
Definition set_stack (s : pstate) (st : list sitem) : pstate :=
  {| stack := st; la := la s; lasym := lasym s; qla := qla s; qlasym := qlasym s;
     input := input s; pos := pos s; trace := trace s;
     shifts := shifts s; rec_shifts := rec_shifts s |}.
Definition add_event (s : pstate) (e : event) : pstate :=
  {| stack := stack s; la := la s; lasym := lasym s; qla := qla s; qlasym := qlasym s;
     input := input s; pos := pos s; trace := e :: trace s;
     shifts := shifts s; rec_shifts := rec_shifts s |}.

Definition set_shifts (s : pstate) (n r : Z) : pstate :=
  {| stack := stack s; la := la s; lasym := lasym s; qla := qla s; qlasym := qlasym s;
     input := input s; pos := pos s; trace := trace s;
     shifts := n; rec_shifts := r |}.

(* _makeError: needs _lasym to be a Token; Expected = keys of the top row *)
Definition make_error (s : pstate) : option value :=
  match lasym s with
  | VTok _ _ =>
    match peek (stack s) 0 with
    | None => None
    | Some top =>
      match row_keys (t_actions tb) (i_state top) with
      | None => None
      | Some ks => Some (VErr (lasym s) ks)
      end
    end
  | _ => None
  end.

(* _readToken; None = crash *)
Definition read_token (s : pstate) : option pstate :=
  if negb (qla s =? -1) then
    Some (set_la s (qla s) (qlasym s) (-1) VNil)
  else
    let '((ty, tok), s1) := lex_read s in
    let s2 := set_la s1 ty tok (qla s1) (qlasym s1) in
    if ty =? ERROR then
      match make_error s2 with
      | None => None
      | Some e => Some (set_la s2 ty e (qla s2) (qlasym s2))
      end
    else Some s2.

Definition as_list (v : value) : list value :=
  match v with VList l => l | _ => [] end.

Definition peek_sym (st : list sitem) (n : nat) : option value :=
  match peek st n with Some it => Some (i_sym it) | None => None end.

(* the arguments of a user action: Peek(n-1) ... Peek(0) *)
Fixpoint peek_args (st : list sitem) (n : nat) : option (list value) :=
  match n with
  | O => Some []
  | S k =>
    match peek_sym st k, peek_args st k with
    | Some v, Some rest => Some (v :: rest)
    | _, _ => None
    end
  end.

Definition act (st : list sitem) (p : Z) : option value :=
  if p <? 0 then None else
  match nth_error (t_kinds tb) (Z.to_nat p), nthz (t_term_counts tb) p with
  | Some k, Some tc =>
    match k with
    | KSPrime => None
    | KUser =>
      if tc <? 0 then None else
      match peek_args st (Z.to_nat tc) with
      | Some args => Some (VNode p args)
      | None => None
      end
    | KOneOrMore =>
      if tc =? 1 then
        match peek_sym st 0 with Some e => Some (VList [e]) | None => None end
      else
        match peek_sym st 1, peek_sym st 0 with
        | Some l, Some e => Some (VList (as_list l ++ [e]))
        | _, _ => None
        end
    | KOneOrMoreF =>
      if tc =? 1 then
        match peek_sym st 0 with
        | Some e => Some (VList (if discard e then [] else [e]))
        | None => None
        end
      else
        match peek_sym st 1, peek_sym st 0 with
        | Some l, Some e => Some (VList (if discard e then as_list l else as_list l ++ [e]))
        | _, _ => None
        end
    | KList =>
      if tc =? 1 then
        match peek_sym st 0 with Some e => Some (VList [e]) | None => None end
      else
        match peek_sym st 2, peek_sym st 0 with
        | Some l, Some e => Some (VList (as_list l ++ [e]))
        | _, _ => None
        end
    | KZeroOrOne | KZeroOrMore =>
      if tc =? 1 then peek_sym st 0 else Some VZero
    end
  | _, _ => None
  end.

(* PeekSlice(n) in slice order (bottom first); None when n > len *)
Definition peek_slice (st : list sitem) (n : nat) : option (list sitem) :=
  if Nat.leb n (length st) then Some (rev (firstn n st)) else None.

Fixpoint trim_leading (l : list sitem) : list sitem :=
  match l with
  | it :: l' => if b_empty (i_bounds it) then trim_leading l' else l
  | [] => []
  end.
Definition trim_trailing (l : list sitem) : list sitem := rev (trim_leading (rev l)).

Definition reduce_bounds (sl : list sitem) : bounds :=
  let t := trim_trailing (trim_leading sl) in
  match t with
  | [] => {| b_begin := VNil; b_end := VNil; b_empty := true |}
  | first :: _ =>
    {| b_begin := b_begin (i_bounds first);
       b_end := b_end (i_bounds (last t first));
       b_empty := false |}
  end.

Definition pop (st : list sitem) (n : nat) : option (list sitem) :=
  if Nat.leb n (length st) then Some (skipn n st) else None.

Inductive outcome :=
| Continue (s : pstate)
| Accept (s : pstate)
| Reject (s : pstate)
| Crash
| Fuel.

(* one simulated scan of _recover's innermost "for", on a copy of the state
   stack (top first): SimYes = after the reductions the parser would perform
   with ERROR as the lookahead, ERROR can be shifted and the state reached
   accepts the current lookahead *)
Inductive sim := SimYes | SimNo | SimCrash | SimFuel.

Fixpoint recover_sim (fuel : nat) (states : list Z) (look : Z) : sim :=
  match fuel with
  | O => SimFuel
  | S f =>
    match states with
    | [] => SimCrash                   (* sim[len(sim)-1] on an empty slice *)
    | state :: _ =>
      match find (t_actions tb) state ERROR with
      | FCrash => SimCrash
      | FNone => SimNo
      | FFound action =>
        if action <? 0 then
          match nthz (t_term_counts tb) (- action), nthz (t_rules tb) (- action) with
          | Some tc, Some rule =>
            if tc <? 0 then SimCrash                       (* negative slice bound *)
            else if Z.of_nat (length states) <=? tc then SimNo   (* termCount >= len(sim): break *)
            else
              let rest := skipn (Z.to_nat tc) states in
              match rest with
              | [] => SimCrash
              | exposed :: _ =>
                match find (t_goto tb) exposed rule with
                | FCrash => SimCrash
                | FNone => recover_sim f (0 :: rest) look
                | FFound st' => recover_sim f (st' :: rest) look
                end
              end
          | _, _ => SimCrash
          end
        else
          match find (t_actions tb) action look with
          | FCrash => SimCrash
          | FNone => SimNo
          | FFound _ => SimYes
          end
      end
    end
  end.

Inductive pops :=
| PFound (st : list sitem) (errsym : value)   (* recovery point found, stack and Error to report *)
| PExhausted (errsym : value)                 (* every entry popped *)
| PCrash
| PFuel.

(* for len(p._stack) >= 1 { ... ; if the popped entry holds an Error keep it; p._stack.Pop(1) } *)
Fixpoint recover_pops (fuel : nat) (st : list sitem) (look : Z) (errsym : value) : pops :=
  match st with
  | [] => PExhausted errsym
  | top :: st' =>
    match recover_sim fuel (map i_state st) look with
    | SimYes => PFound st errsym
    | SimNo =>
      recover_pops fuel st' look
        (match i_sym top with VErr _ _ => i_sym top | _ => errsym end)
    | SimCrash => PCrash
    | SimFuel => PFuel
    end
  end.

(* while p._la == ERROR { p._readToken() } *)
Fixpoint skip_errors (fuel : nat) (s : pstate) : outcome :=
  match fuel with
  | O => Fuel
  | S f =>
    if la s =? ERROR then
      match read_token s with
      | None => Crash
      | Some s' => skip_errors f s'
      end
    else Continue s
  end.

Fixpoint recover_outer (fuel : nat) (errsym : value) (s : pstate) : outcome :=
  match fuel with
  | O => Fuel
  | S f =>
    match recover_pops fuel (stack s) (la s) errsym with
    | PCrash => Crash
    | PFuel => Fuel
    | PFound st' e =>
      (* success: remember how many tokens had been shifted *)
      Continue (set_shifts (set_la (set_stack s st') ERROR e (la s) (lasym s)) (shifts s) (shifts s))
    | PExhausted e =>
      if la s =? EOF then Reject (set_stack s [])
      else
        match read_token s with     (* p._stack = save; p._readToken() *)
        | None => Crash
        | Some s' => recover_outer f e s'
        end
    end
  end.

(* if p._shifts == p._recoverShifts { if EOF return false; readToken; skip ERRORs }:
   a new error before any token was shifted since the last recovery drops the
   offending lookahead, so that recovery always makes progress *)
Definition drop_if_stuck (fuel : nat) (s : pstate) : outcome :=
  if shifts s =? rec_shifts s then
    if la s =? EOF then Reject s
    else
      match read_token s with
      | None => Crash
      | Some s' => skip_errors fuel s'
      end
  else Continue s.

Definition recover (fuel : nat) (s : pstate) : outcome :=
  let errsym :=
    match lasym s with
    | VErr _ _ => Some (lasym s)
    | _ => make_error s
    end in
  match errsym with
  | None => Crash
  | Some e =>
    match skip_errors fuel s with
    | Continue s1 =>
      match drop_if_stuck fuel s1 with
      | Continue s2 => recover_outer fuel e s2
      | o => o
      end
    | o => o
    end
  end.

Definition latok (v : value) : option value :=
  match v with
  | VTok _ _ => Some v
  | VErr t _ => Some t
  | _ => None
  end.

(* one iteration of the "for" in parse() *)
Definition pstep (fuel : nat) (s : pstate) : outcome :=
  match peek (stack s) 0 with
  | None => Crash
  | Some top =>
    match find (t_actions tb) (i_state top) (la s) with
    | FCrash => Crash
    | FNone => if rec_enabled then recover fuel s else Reject s
    | FFound action =>
      if action =? accept_code then Accept s
      else if action >=? 0 then
        let bnd :=
          if emit_bounds then
            match latok (lasym s) with
            | Some t => Some {| b_begin := t; b_end := t; b_empty := false |}
            | None => None
            end
          else Some no_bounds in
        match bnd with
        | None => Crash
        | Some b =>
          let s0 := set_stack s ({| i_state := action; i_sym := lasym s; i_bounds := b |} :: stack s) in
          let s1 := if la s =? ERROR then s0 else set_shifts s0 (shifts s + 1) (rec_shifts s) in
          match read_token s1 with
          | None => Crash
          | Some s2 => Continue s2
          end
        end
      else
        let p := - action in
        match nthz (t_term_counts tb) p, nthz (t_rules tb) p, act (stack s) p with
        | Some tc, Some rule, Some res =>
          if tc <? 0 then Crash else
          let n := Z.to_nat tc in
          let s0 := add_event s (ERed p res) in
          let bres :=
            if emit_bounds then
              match peek_slice (stack s) n with
              | None => None
              | Some sl => Some (reduce_bounds sl)
              end
            else Some no_bounds in
          match bres with
          | None => Crash
          | Some b =>
            let s1 :=
              if emit_bounds && negb (b_empty b)
              then add_event s0 (EBounds res (b_begin b) (b_end b)) else s0 in
            match pop (stack s) n with
            | None => Crash
            | Some st' =>
              match peek st' 0 with
              | None => Crash
              | Some top' =>
                match find (t_goto tb) (i_state top') rule with
                | FCrash => Crash
                | FNone =>
                  Continue (set_stack s1 ({| i_state := 0; i_sym := res; i_bounds := b |} :: st'))
                | FFound ns =>
                  Continue (set_stack s1 ({| i_state := ns; i_sym := res; i_bounds := b |} :: st'))
                end
              end
            end
          end
        | _, _, _ => Crash
        end
    end
  end.

Fixpoint ploop (fuel : nat) (s : pstate) : outcome :=
  match fuel with
  | O => Fuel
  | S f =>
    match pstep fuel s with
    | Continue s' => ploop f s'
    | o => o
    end
  end.

Definition init_state (w : list Z) : pstate :=
  {| stack := [{| i_state := 0; i_sym := VNil; i_bounds := no_bounds |}];
     la := 0; lasym := VNil; qla := -1; qlasym := VNil;
     input := w; pos := O; trace := []; shifts := 0; rec_shifts := -1 |}.

(* parse(lex): result and the events in call order *)
Definition parse (fuel : nat) (w : list Z) : outcome :=
  match read_token (init_state w) with
  | None => Crash
  | Some s => ploop fuel s
  end.

End Runtime.
