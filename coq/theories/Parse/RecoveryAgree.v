(* The recovery point found by the simulation in _recover is real.  If
   recover_sim answers SimYes on the state list of a stack satisfying the
   invariant, then the main loop, resumed with la = ERROR on that stack, performs
   reductions only (every step finds its action: _recover is not re-entered),
   then shifts ERROR, and the queued lookahead has an action in the new state. *)
From Coq Require Import List ZArith Lia.
From Lox Require Import Parse.Grammar Parse.Tables Parse.Validator
  Parse.ValidatorFacts Parse.ParseRuntime Parse.RuntimeFacts Parse.RecoveryFacts Parse.RecoverySound.
Import ListNotations.

Section Agree.
Variable g : grammar.
Variable tb : tables.
Variable c : cert.
Variable nterm : nat.
Variable eb : bool.
Variable discard : value -> bool.
Hypothesis Hval : validate g tb c nterm = true.
Variable w : list nat.

Notation pstep' := (pstep tb eb true discard).
Notation ploop' := (ploop tb eb true discard).
Notation RInv' := (RInv g c nterm w).

Inductive reduces : pstate -> pstate -> Prop :=
| rd_refl s : reduces s s
| rd_step s s1 s2 top v :
    peek (stack s) 0 = Some top -> find (t_actions tb) (i_state top) (la s) = FFound v ->
    (v < 0)%Z -> (forall f, pstep' f s = Continue s1) ->
    la s1 = la s -> lasym s1 = lasym s -> qla s1 = qla s -> qlasym s1 = qlasym s ->
    reduces s1 s2 -> reduces s s2.

Lemma reduces_ploop s s1 : reduces s s1 ->
  exists n, forall k, ploop' (n + k) s = ploop' k s1.
Proof.
  induction 1 as [s|s s1 s2 top v Hpk Hf Hv Hps _ _ _ _ _ IH].
  - exists 0. reflexivity.
  - destruct IH as (n & Hn). exists (S n). intros k.
    change (S n + k) with (S (n + k)). rewrite ploop_unfold, Hps. apply Hn.
Qed.

Definition shifted (s1 : pstate) (v : Z) (b : bounds) (q : Z) (qsym : value) : pstate :=
  set_la (shift_state s1 v b) q qsym (-1)%Z VNil.

Theorem recover_sim_agrees : forall fuel s,
  RInv' s -> la s = ERROR -> qla s <> (-1)%Z ->
  recover_sim tb fuel (map i_state (stack s)) (qla s) = SimYes ->
  exists s1 top v b,
    reduces s s1 /\ lasym s1 = lasym s /\
    peek (stack s1) 0 = Some top /\
    find (t_actions tb) (i_state top) ERROR = FFound v /\ (0 <= v)%Z /\ v <> accept_code /\
    (forall f, pstep' f s1 = Continue (shifted s1 v b (qla s) (qlasym s))) /\
    RInv' (shifted s1 v b (qla s) (qlasym s)) /\
    exists a, find (t_actions tb) v (qla s) = FFound a.
Proof.
  induction fuel as [|fuel IH]; intros s HI Hla Hq Hsim; [discriminate|].
  destruct HI as (stk & wc & wr & Hw & HC & HE).
  destruct (core_top g tb c nterm Hval _ _ _ HC) as (top & Hpk & Htop & Hlt & _).
  assert (Hstk : exists r0, stack s = top :: r0) by (destruct (stack s); inversion Hpk; eauto).
  destruct Hstk as (r0 & Hstk). rewrite Hstk in Hsim. cbn [map] in Hsim.
  destruct (find (t_actions tb) (i_state top) ERROR) as [v| |] eqn:Hf;
    [|cbn [recover_sim] in Hsim; rewrite Hf in Hsim; discriminate..].
  assert (Hf' : find (t_actions tb) (i_state top) (la s) = FFound v) by (rewrite Hla; exact Hf).
  assert (Hstep : forall f, pstep' f s = do_action tb eb discard s v)
    by (intros f; apply pstep_found with (top := top); assumption).
  pose proof Hf as Hfj. rewrite Htop in Hfj.
  destruct (val_found Hval _ _ _ Hlt Hfj) as [_ [_ He _|Hna Hge Hne Hs' Hpast|p pr Hneg _ _ _ _ _ _]].
  - discriminate He.
  - (* ERROR can be shifted here: the scan has looked the queued lookahead up in the new state *)
    rewrite (recover_sim_shift tb fuel _ _ _ v Hf Hge) in Hsim.
    destruct (find (t_actions tb) v (qla s)) as [a| |] eqn:Hfa; try discriminate.
    destruct (inv_found g tb c nterm eb discard Hval w s stk wc wr top v Hw HC HE Htop Hf' Hna)
      as (s2 & Hact & HI2).
    destruct (do_action_continue _ _ _ _ _ _ Hact) as [(_ & _ & b & _ & Hrd)|(Hneg & _)]; [|lia].
    destruct (shift_state_frame s v b) as (_ & _ & _ & F4 & F5 & _).
    rewrite read_token_queued, F4, F5 in Hrd by (rewrite F4; exact Hq). inversion Hrd; subst s2.
    exists s, top, v, b. split; [apply rd_refl|]. do 5 (split; [assumption || reflexivity|]).
    split; [|split; [exact HI2|eauto]].
    intros f. rewrite Hstep. exact Hact.
  - (* a reduction: the loop performs it, and the scan continues on the states it leaves *)
    destruct (inv_found g tb c nterm eb discard Hval w s stk wc wr top v Hw HC HE Htop Hf')
      as (s' & Hact & HI'); [unfold accept_code; lia|].
    destruct (do_action_continue _ _ _ _ _ _ Hact)
      as [(_ & Hge & _)|(_ & tc & rule & res & top' & r & ns & Htc & Hrule & _ & Htc0 & _ & Hsk & Hg & Hs')];
      [lia|].
    match type of Hs' with _ = red_state _ _ ?p ?res ?b ?ns ?st =>
      destruct (red_state_frame eb s p res b ns st) as (F1 & F2 & F3 & F4 & F5 & _) end.
    rewrite <- Hs' in F1, F2, F3, F4, F5.
    rewrite Hstk in Hsk.
    rewrite (recover_sim_reduce tb fuel _ _ _ v tc rule (i_state top') (map i_state r) ns Hf Hneg Htc Hrule Htc0)
      in Hsim;
      [|change (i_state top :: map i_state r0) with (map i_state (top :: r0)); rewrite skipn_map, Hsk; reflexivity
       |exact Hg].
    rewrite <- F4 in Hsim.
    destruct (IH s' HI') as (s1 & top1 & v1 & b & Hred & Hsym & Hpk1 & Hf1 & Hv0 & Hna & Hstep1 & HI1 & Hacc);
      [congruence|congruence|rewrite F1; exact Hsim|].
    rewrite F3 in Hsym. rewrite F4, F5 in Hstep1, HI1. rewrite F4 in Hacc.
    exists s1, top1, v1, b. repeat split; auto.
    eapply rd_step; eauto. intros f. rewrite Hstep. exact Hact.
Qed.

Corollary recover_sim_agrees_ploop : forall fuel s,
  RInv' s -> la s = ERROR -> qla s <> (-1)%Z ->
  recover_sim tb fuel (map i_state (stack s)) (qla s) = SimYes ->
  exists n s2 top2 a,
    (forall k, ploop' (n + k) s = ploop' k s2) /\
    la s2 = qla s /\ lasym s2 = qlasym s /\ qla s2 = (-1)%Z /\
    peek (stack s2) 0 = Some top2 /\ i_sym top2 = lasym s /\
    find (t_actions tb) (i_state top2) (la s2) = FFound a /\ RInv' s2.
Proof.
  intros fuel s HI Hla Hq Hsim.
  destruct (recover_sim_agrees fuel s HI Hla Hq Hsim)
    as (s1 & top & v & b & Hred & Hsym & Hpk & Hf & Hv & Hna & Hstep & HI2 & a & Ha).
  destruct (reduces_ploop _ _ Hred) as (n & Hn).
  exists (n + 1), (shifted s1 v b (qla s) (qlasym s)), {| i_state := v; i_sym := lasym s1; i_bounds := b |}, a.
  repeat split; auto.
  2:{ unfold shifted. cbn [set_la stack]. rewrite (proj1 (shift_state_frame s1 v b)). reflexivity. }
  intros k. rewrite <- Nat.add_assoc, Hn. cbn [Nat.add]. rewrite ploop_unfold, Hstep. reflexivity.
Qed.

End Agree.

Print Assumptions recover_sim_agrees.
Print Assumptions recover_sim_agrees_ploop.
