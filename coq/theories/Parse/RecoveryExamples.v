(* Witness: RecoverySound.nonsentence_reports needs its hypothesis
   `start_sym g <> Some (T error_t)`.  For the (validated) grammar S' -> @error
   the empty input is accepted after a recovery, no production is ever reduced,
   and the empty input is not a sentence. *)
From Coq Require Import List ZArith.
From Lox Require Import Parse.Grammar Parse.Tables Parse.Validator Parse.ParseRuntime
  Parse.Refine.
Import ListNotations.

Definition g0 : grammar := [ {| lhs := 0; rhs := [T error_t] |} ].
Definition tb0 : tables :=
  {| t_actions := [2; 5;  2; 1; 1;  2; 0; accept_code]%Z;   (* state 0: ERROR -> shift 1; state 1: EOF -> accept *)
     t_goto := [2; 3; 0; 0]%Z;
     t_rules := [0%Z]; t_term_counts := [1%Z]; t_kinds := [KSPrime] |}.
Definition c0 : cert :=
  {| c_items := [[(0, 0, 0)]; [(0, 1, 0)]]; c_nullable := [false]; c_first := [[1]] |}.

Theorem nonsentence_reports_needs_start_hyp :
  validate g0 tb0 c0 2 = true /\ ordinary 2 [] /\ start_sym g0 = Some (T error_t) /\
  (exists s, parse tb0 true true (fun _ => false) 10 (zs []) = Accept s /\ trace s = []) /\
  ~ sentence g0 (tokens_of []).
Proof.
  split; [vm_compute; reflexivity|]. split; [constructor|]. split; [reflexivity|]. split.
  - eexists. split; [vm_compute; reflexivity|reflexivity].
  - intros (X & t & Hs & Ht). unfold start_sym in Hs. simpl in Hs. inversion Hs; subst X.
    inversion Ht.
Qed.

Print Assumptions nonsentence_reports_needs_start_hyp.
