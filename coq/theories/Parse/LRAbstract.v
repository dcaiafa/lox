(* An abstract LR machine over trees (stack of state * tree with an implicit
   bottom entry in state 0) and the lemma "the parser follows the parse tree".
   The validator's clauses are hypotheses here; ValidatorFacts.v proves them
   from validate and Complete.abstract_accept_gen puts them in. *)
From Coq Require Import List Arith Lia Bool.
From Lox Require Import Parse.Grammar Parse.Validator.
Import ListNotations.

(* the Node subtrees of t in post-order: the reductions of a parse of t *)
Fixpoint reds (t : tree) : list tree :=
  match t with
  | Leaf _ => []
  | Node p ch => flat_map reds ch ++ [t]
  end.

Section LR.
Variable g : grammar.
Variable c : cert.
Variable nterm : nat.
Variable action : nat -> nat -> option act.
Variable goto_ : nat -> nat -> option nat.
Variable nend : nat.     (* index given to the EOF token; it only shows in the Leaf that a
                            shift at the end of the input would push, which validated
                            tables never do *)

Definition item (s p d a : nat) : Prop := has_item c s (p, d, a) = true.

Definition follows (beta : list sym) (a x : nat) : Prop :=
  (nullable_word c beta = true /\ x = a) \/ first_word c beta x = true.

Definition stack := list (nat * tree).
Definition cfg := (stack * list token * list tree)%type.

Definition topst (stk : stack) : nat := match stk with [] => 0 | (s, _) :: _ => s end.
Definition la_of (inp : list token) : nat := match inp with [] => eof | (t, _) :: _ => t end.

Fixpoint pop (n : nat) (st : stack) : option (list tree * stack) :=
  match n with
  | 0 => Some ([], st)
  | S n' =>
    match st with
    | [] => None
    | (_, t) :: st' =>
      match pop n' st' with
      | Some (ts, r) => Some (ts ++ [t], r)
      | None => None
      end
    end
  end.

Inductive ares := ANext (x : cfg) | AAcc | ARej | AStuck.

Definition astep (x : cfg) : ares :=
  let '(stk, inp, tr) := x in
  match action (topst stk) (la_of inp) with
  | None => ARej
  | Some Acc => AAcc
  | Some (Shift s') =>
    match inp with
    | tok :: inp' => ANext ((s', Leaf tok) :: stk, inp', tr)
    | [] => ANext ((s', Leaf (eof, nend)) :: stk, [], tr)
    end
  | Some (Reduce p) =>
    match nth_error g p with
    | None => AStuck
    | Some pr =>
      match pop (length (rhs pr)) stk with
      | None => AStuck
      | Some (ch, rest) =>
        match goto_ (topst rest) (lhs pr) with
        | None => AStuck
        | Some s' => ANext ((s', Node p ch) :: rest, inp, Node p ch :: tr)
        end
      end
    end
  end.

Inductive reach : cfg -> cfg -> Prop :=
| reach_refl x : reach x x
| reach_step x1 x2 x3 : astep x1 = ANext x2 -> reach x2 x3 -> reach x1 x3.

Lemma reach_trans x1 x2 x3 : reach x1 x2 -> reach x2 x3 -> reach x1 x3.
Proof. induction 1; eauto using reach. Qed.

Lemma reach_one x1 x2 : astep x1 = ANext x2 -> reach x1 x2.
Proof. intros. eapply reach_step; eauto using reach. Qed.

Lemma reach_det x a b :
  reach x a -> reach x b ->
  (forall y, astep a <> ANext y) -> (forall y, astep b <> ANext y) -> a = b.
Proof.
  intros Ha. revert b. induction Ha as [x|x1 x2 x3 Hs Hr IH]; intros b Hb Ha1 Hb1.
  - destruct Hb as [|y1 y2 y3 Hs' Hr']; auto. exfalso. eapply Ha1; eauto.
  - destruct Hb as [|y1 y2 y3 Hs' Hr'].
    + exfalso. eapply Hb1; eauto.
    + rewrite Hs in Hs'. inversion Hs'; subst. auto.
Qed.

Lemma astep_acc stk inp tr :
  astep (stk, inp, tr) = AAcc -> action (topst stk) (la_of inp) = Some Acc.
Proof.
  unfold astep. destruct (action (topst stk) (la_of inp)) as [[s'|p|]|]; try discriminate; auto.
  - destruct inp; discriminate.
  - destruct (nth_error g p) as [pr|]; [|discriminate].
    destruct (pop (length (rhs pr)) stk) as [[ch rest]|]; [|discriminate].
    destruct (goto_ (topst rest) (lhs pr)); discriminate.
Qed.

Lemma astep_rej stk inp tr :
  astep (stk, inp, tr) = ARej -> action (topst stk) (la_of inp) = None.
Proof.
  unfold astep. destruct (action (topst stk) (la_of inp)) as [[s'|p|]|]; try discriminate; auto.
  - destruct inp; discriminate.
  - destruct (nth_error g p) as [pr|]; [|discriminate].
    destruct (pop (length (rhs pr)) stk) as [[ch rest]|]; [|discriminate].
    destruct (goto_ (topst rest) (lhs pr)); discriminate.
Qed.

Lemma pop_app (acc : stack) rest :
  pop (length acc) (acc ++ rest) = Some (rev (map snd acc), rest).
Proof.
  induction acc as [|[s t] acc IH]; simpl; auto.
  rewrite IH. reflexivity.
Qed.

Lemma reduce_step (acc stk : stack) inp tr q qr s' :
  action (topst (acc ++ stk)) (la_of inp) = Some (Reduce q) ->
  nth_error g q = Some qr -> length acc = length (rhs qr) ->
  goto_ (topst stk) (lhs qr) = Some s' ->
  astep (acc ++ stk, inp, tr) =
  ANext ((s', Node q (rev (map snd acc))) :: stk, inp, Node q (rev (map snd acc)) :: tr).
Proof.
  intros Ha Hq Hl Hg. unfold astep. rewrite Ha, Hq, <- Hl, pop_app, Hg. reflexivity.
Qed.

Section Complete.
Hypothesis eof_lt : eof < nterm.
Hypothesis nullable_stable : forall p pr, nth_error g p = Some pr ->
  nullable_word c (rhs pr) = true -> nullable_nt c (lhs pr) = true.
Hypothesis first_stable : forall p pr x, nth_error g p = Some pr -> x < nterm ->
  first_word c (rhs pr) x = true -> first_nt c (lhs pr) x = true.
Hypothesis sprime_fresh : forall p pr pr0, nth_error g p = Some pr ->
  nth_error g 0 = Some pr0 -> ~ In (NT (lhs pr0)) (rhs pr).
Hypothesis init_ok : item 0 0 0 eof.
Hypothesis closure_ok : forall s p pr d a B q qr x,
  item s p d a -> nth_error g p = Some pr -> nth_error (rhs pr) d = Some (NT B) ->
  nth_error g q = Some qr -> lhs qr = B -> x < nterm ->
  follows (skipn (S d) (rhs pr)) a x -> item s q 0 x.
Hypothesis shift_ok : forall s p pr d a t,
  item s p d a -> nth_error g p = Some pr -> nth_error (rhs pr) d = Some (T t) ->
  exists s', action s t = Some (Shift s') /\ item s' p (S d) a.
Hypothesis goto_ok : forall s p pr d a B,
  item s p d a -> nth_error g p = Some pr -> nth_error (rhs pr) d = Some (NT B) ->
  exists s', goto_ s B = Some s' /\ item s' p (S d) a.
Hypothesis reduce_ok : forall s p pr a,
  item s p (length (rhs pr)) a -> nth_error g p = Some pr -> p <> 0 ->
  action s a = Some (Reduce p).
Hypothesis accept_ok : forall s pr0,
  nth_error g 0 = Some pr0 -> item s 0 (length (rhs pr0)) eof -> action s eof = Some Acc.

Definition tok_ok (tk : token) : Prop := fst tk < nterm.

Lemma tree_first_nullable :
  (forall X t u, wt g X t u ->
     (u = [] -> nullable_sym c X = true) /\
     (forall x u', u = x :: u' -> tok_ok x -> first_sym c X (fst x) = true)) /\
  (forall Xs ts us, wf g Xs ts us ->
     (us = [] -> nullable_word c Xs = true) /\
     (forall x u', us = x :: u' -> tok_ok x -> first_word c Xs (fst x) = true)).
Proof.
  apply wt_wf_ind.
  - intros t i. split; [discriminate|]. intros x u' H _; inversion H; subst. simpl. apply Nat.eqb_refl.
  - intros p pr ch u Hp Hwf [IHn IHf]. split.
    + intros ->. simpl. eapply nullable_stable; eauto.
    + intros x u' -> Hx. simpl. eapply first_stable; eauto.
  - split; [reflexivity|discriminate].
  - intros X t u Xs ts us Ht [IHtn IHtf] Hf [IHfn IHff]. split.
    + intros H. apply app_eq_nil in H as [-> ->]. simpl. rewrite IHtn, IHfn; auto.
    + intros x u' H Hx. simpl. destruct u as [|x0 u0].
      * simpl in H. subst us. rewrite IHtn by reflexivity.
        rewrite (IHff x u' eq_refl Hx). apply orb_true_r.
      * simpl in H. inversion H; subst. rewrite (IHtf x u0 eq_refl Hx).
        destruct (nullable_sym c X); reflexivity.
Qed.

Lemma follows_forest Xs ts us a rest :
  wf g Xs ts us -> la_of rest = a -> Forall tok_ok us -> follows Xs a (la_of (us ++ rest)).
Proof.
  intros Hwf Hr Hok. destruct (proj2 tree_first_nullable _ _ _ Hwf) as [Hn Hf].
  destruct us as [|x u'].
  - left. split; auto.
  - right. inversion Hok; subst. destruct x as [t i]. simpl.
    apply (Hf (t, i) u' eq_refl). assumption.
Qed.

Lemma la_app_lt us rest : Forall tok_ok us -> la_of rest < nterm -> la_of (us ++ rest) < nterm.
Proof.
  intros Hok Hr. destruct us as [|[t i] u']; simpl; auto. inversion Hok; subst. assumption.
Qed.

(* The forest half is stated along the right-hand side of one production q:
   done_ is the part of rhs q already passed and acc the entries pushed for it,
   so that at the end acc' is the whole right-hand side, which the node case
   then reduces. *)
Theorem follow :
  (forall X t u, wt g X t u ->
     forall stk tr p pr d a rest,
       item (topst stk) p d a -> nth_error g p = Some pr -> nth_error (rhs pr) d = Some X ->
       follows (skipn (S d) (rhs pr)) a (la_of rest) -> la_of rest < nterm -> Forall tok_ok u ->
       exists s', reach (stk, u ++ rest, tr) ((s', t) :: stk, rest, rev (reds t) ++ tr) /\
                  item s' p (S d) a) /\
  (forall Xs ts us, wf g Xs ts us ->
     forall q qr done_ a rest (acc stk : stack) tr,
       nth_error g q = Some qr -> rhs qr = done_ ++ Xs -> length acc = length done_ ->
       item (topst (acc ++ stk)) q (length done_) a ->
       la_of rest = a -> a < nterm -> Forall tok_ok us ->
       exists acc', reach (acc ++ stk, us ++ rest, tr)
                          (acc' ++ stk, rest, rev (flat_map reds ts) ++ tr) /\
                    length acc' = length (rhs qr) /\
                    rev (map snd acc') = rev (map snd acc) ++ ts /\
                    item (topst (acc' ++ stk)) q (length (rhs qr)) a).
Proof.
  apply wt_wf_ind.
  - intros t i stk tr p pr d a rest Hi Hp Hd Hfol Hlt Hok.
    destruct (shift_ok _ _ _ _ _ _ Hi Hp Hd) as (s' & Ha & Hi').
    exists s'. split; auto. simpl. apply reach_one. unfold astep. simpl. rewrite Ha. reflexivity.
  - intros q qr ch u Hq Hwf IH stk tr p pr d a rest Hi Hp Hd Hfol Hlt Hok.
    assert (q <> 0) as Hq0.
    { intros ->. eapply sprime_fresh; [exact Hp|exact Hq|]. eapply nth_error_In; eauto. }
    assert (Hci : item (topst stk) q 0 (la_of rest)).
    { eapply closure_ok; eauto. }
    destruct (IH q qr [] (la_of rest) rest [] stk tr Hq eq_refl eq_refl Hci eq_refl Hlt Hok)
      as (acc' & Hreach & Hlen & Hch & Hit).
    simpl in Hch.
    destruct (goto_ok _ _ _ _ _ _ Hi Hp Hd) as (s' & Hg & Hi').
    exists s'. split; auto.
    eapply reach_trans; [exact Hreach|].
    apply reach_one. simpl reds. rewrite rev_app_distr. simpl. rewrite <- Hch.
    eapply reduce_step; eauto.
  - intros q qr done_ a rest acc stk tr Hq Hr Hl Hi Hh Hlt Hok.
    exists acc. rewrite app_nil_r in *. simpl. rewrite Hr, Hl. repeat split; auto using reach_refl.
  - intros X t u Xs ts us Ht IHt Hf IHf q qr done_ a rest acc stk tr Hq Hr Hl Hi Hh Hlt Hok.
    apply Forall_app in Hok as [Hoku Hokus].
    assert (Hd : nth_error (rhs qr) (length done_) = Some X).
    { rewrite Hr. rewrite nth_error_app2 by lia. rewrite Nat.sub_diag. reflexivity. }
    assert (Hfol : follows (skipn (S (length done_)) (rhs qr)) a (la_of (us ++ rest))).
    { rewrite Hr. replace (skipn (S (length done_)) (done_ ++ X :: Xs)) with Xs.
      - eapply follows_forest; eauto.
      - change (X :: Xs) with ([X] ++ Xs). rewrite app_assoc.
        rewrite skipn_app.
        replace (S (length done_)) with (length (done_ ++ [X])) by (rewrite app_length; simpl; lia).
        rewrite skipn_all, Nat.sub_diag. reflexivity. }
    assert (Hlt' : la_of (us ++ rest) < nterm).
    { apply la_app_lt; auto. rewrite Hh. exact Hlt. }
    destruct (IHt (acc ++ stk) tr q qr (length done_) a (us ++ rest) Hi Hq Hd Hfol Hlt' Hoku)
      as (s' & Hreach & Hi').
    destruct (IHf q qr (done_ ++ [X]) a rest ((s', t) :: acc) stk (rev (reds t) ++ tr) Hq)
      as (acc' & Hr2 & Hl2 & Hc2 & Hi2); auto.
    + rewrite <- app_assoc. exact Hr.
    + simpl. rewrite app_length. simpl. lia.
    + simpl. rewrite app_length. simpl. rewrite Nat.add_1_r. exact Hi'.
    + exists acc'. rewrite <- app_assoc. split; [|repeat split; auto].
      * eapply reach_trans; [exact Hreach|].
        simpl flat_map. rewrite rev_app_distr, <- app_assoc. exact Hr2.
      * rewrite Hc2. simpl. rewrite <- !app_assoc. reflexivity.
Qed.

Theorem follow_accept X t u :
  start_sym g = Some X -> wt g X t u -> Forall tok_ok u ->
  exists s', reach ([], u, []) ([(s', t)], [], rev (reds t)) /\
             astep ([(s', t)], [], rev (reds t)) = AAcc.
Proof.
  intros Hs Ht Hok. unfold start_sym in Hs.
  case_eq (nth_error g 0); [intros pr0 Hp0|intros Hp0]; rewrite Hp0 in Hs; [|discriminate].
  destruct (rhs pr0) as [|X0 [|? ?]] eqn:Hr0; try discriminate. inversion Hs; subst X0.
  (* auto closes la_of [] < nterm by eof_lt *)
  destruct (proj1 follow X t u Ht [] [] 0 pr0 0 eof []) as (s' & Hreach & Hi); auto.
  - rewrite Hr0. reflexivity.
  - rewrite Hr0. left. split; reflexivity.
  - exists s'. rewrite !app_nil_r in Hreach. split; auto.
    unfold astep. simpl. erewrite accept_ok; eauto. rewrite Hr0. exact Hi.
Qed.

End Complete.
End LR.
