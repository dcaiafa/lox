(* Soundness of the generated parser w.r.t. the grammar, absence of
   crashes and exactness.  Invariant: the abstract stack is a path of
   the automaton from state 0, its trees are well-typed and spell the consumed
   prefix of the input. *)
From Coq Require Import List ZArith Lia.
From Lox Require Import Base.ListFacts Parse.Grammar Parse.Tables Parse.Validator
  Parse.LRAbstract Parse.ValidatorFacts Parse.ParseRuntime Parse.RuntimeFacts Parse.Refine Parse.Complete.
Import ListNotations.

Section Trees.
Variable g : grammar.

Lemma wt_yield :
  (forall X t u, wt g X t u -> yield t = u) /\
  (forall Xs ts us, wf g Xs ts us -> flat_map yield ts = us).
Proof.
  apply wt_wf_ind; simpl; intros; auto. congruence.
Qed.

Lemma wf_app Xs ts us : wf g Xs ts us -> forall Ys ts' us', wf g Ys ts' us' ->
  wf g (Xs ++ Ys) (ts ++ ts') (us ++ us').
Proof.
  induction 1; intros Ys ts' us' H'; simpl; auto.
  rewrite <- app_assoc. constructor; auto.
Qed.

Lemma wf_one X t u : wt g X t u -> wf g [X] [t] u.
Proof.
  intros H. rewrite <- (app_nil_r u). constructor; auto. constructor.
Qed.
End Trees.

Section Sound.
Variable g : grammar.
Variable tb : tables.
Variable c : cert.
Variable nterm : nat.
Variable eb : bool.
Variable discard : value -> bool.
Hypothesis Hval : validate g tb c nterm = true.

Notation nst := (nstates c).
Notation item s p d a := (has_item c s (p, d, a) = true).

(* past_ok is all the soundness direction needs of a transition; which items
   the states hold is read off it later (val_past). *)
Inductive path : list (nat * tree) -> Prop :=
| path_nil : path []
| path_cons s t stk X u :
    path stk -> wt g X t u -> past_ok g c (topst stk) s X = true -> s < nst ->
    path ((s, t) :: stk).

Fixpoint syield (stk : list (nat * tree)) : list token :=
  match stk with
  | [] => []
  | (_, t) :: r => syield r ++ yield t
  end.

Lemma path_top_lt stk : path stk -> topst stk < nst.
Proof.
  destruct 1; simpl; auto. apply (val_nstates Hval).
Qed.

Lemma path_pop d : forall stk p a pr,
  path stk -> item (topst stk) p d a -> nth_error g p = Some pr ->
  exists ch rest us a0,
    LRAbstract.pop d stk = Some (ch, rest) /\ path rest /\ item (topst rest) p 0 a0 /\
    wf g (firstn d (rhs pr)) ch us /\ syield stk = syield rest ++ us.
Proof.
  induction d as [|d IH]; intros stk p a pr Hpath Hi Hp.
  - exists [], stk, [], a. simpl. rewrite app_nil_r. repeat split; auto. constructor.
  - destruct Hpath as [|s t stk X u Hpath Hwt Hpast Hs].
    + simpl in Hi. apply (val_init_d0 Hval) in Hi. discriminate.
    + simpl in Hi.
      pose proof (val_past g c _ _ _ _ _ _ Hpast Hi) as (pr' & a' & Hp' & Hd & Hi').
      rewrite Hp in Hp'. inversion Hp'; subst pr'.
      destruct (IH stk p a' pr Hpath Hi' Hp) as (ch & rest & us & a0 & Hpop & Hrest & Hi0 & Hwf & Hy).
      exists (ch ++ [t]), rest, (us ++ u), a0. simpl. rewrite Hpop. repeat split; auto.
      * (* the simpl above has unfolded firstn (S d) (rhs pr) into this match *)
        change (match rhs pr with [] => [] | a0 :: l => a0 :: firstn d l end) with (firstn (S d) (rhs pr)).
        rewrite (firstn_S_nth _ _ _ Hd). apply wf_app; auto. apply wf_one. exact Hwt.
      * rewrite Hy, (proj1 (wt_yield g) _ _ _ Hwt), app_assoc. reflexivity.
Qed.

Lemma path_reduce stk x v :
  path stk -> find (t_actions tb) (Z.of_nat (topst stk)) x = FFound v -> (v < 0)%Z ->
  exists p pr ch rest us s',
    (- v)%Z = Z.of_nat p /\ p <> 0 /\ nth_error g p = Some pr /\
    nthz (t_rules tb) (- v) = Some (Z.of_nat (lhs pr)) /\
    nthz (t_term_counts tb) (- v) = Some (Z.of_nat (length (rhs pr))) /\
    LRAbstract.pop (length (rhs pr)) stk = Some (ch, rest) /\
    wf g (rhs pr) ch us /\ syield stk = syield rest ++ us /\
    goto_of tb (topst rest) (lhs pr) = Some s' /\
    find (t_goto tb) (Z.of_nat (topst rest)) (Z.of_nat (lhs pr)) = FFound (Z.of_nat s') /\
    path ((s', Node p ch) :: rest).
Proof.
  intros Hpath Hf Hv.
  destruct (val_found Hval _ _ _ (path_top_lt _ Hpath) Hf)
    as [_ [?|? ?|p pr _ Hvp Hp0 Hp Hi Hr Htc]]; try (unfold accept_code in *; lia).
  destruct (path_pop _ _ _ _ _ Hpath Hi Hp) as (ch & rest & us & a0 & Hpop & Hrest & Hi0 & Hwf & Hys).
  rewrite firstn_all in Hwf.
  destruct (val_goto_lhs g tb c nterm Hval _ _ _ _ Hi0 Hp Hp0) as (s' & Hg).
  destruct (val_goto_of Hval _ _ _ (path_top_lt _ Hrest) Hg) as (Hs' & Hpast & Hgf).
  exists p, pr, ch, rest, us, s'. repeat split; auto.
  econstructor; eauto. econstructor; eauto.
Qed.

Lemma path_accept stk : path stk -> item (topst stk) 0 1 eof ->
  exists s X t u, stk = [(s, t)] /\ start_sym g = Some X /\ wt g X t u.
Proof.
  intros Hpath Hitem. destruct Hpath as [|s t stk X u Hpath Hwt Hpast Hs]; simpl in Hitem.
  - apply (val_init_d0 Hval) in Hitem. discriminate.
  - pose proof (val_past g c _ _ _ _ _ _ Hpast Hitem) as (pr0 & a0 & Hp0 & Hd & Hi0).
    destruct Hpath as [|s2 t2 stk2 X2 u2 Hpath2 Hwt2 Hpast2 Hs2]; simpl in Hi0.
    + exists s, X, t, u. split; [reflexivity|]. split; [|exact Hwt].
      destruct (val_start g tb c nterm Hval) as (pr0' & X' & Hp0' & Hr).
      unfold start_sym. rewrite Hp0' in *. inversion Hp0; subst pr0'.
      rewrite Hr in *. simpl in Hd. congruence.
    + pose proof (val_past g c _ _ _ _ _ _ Hpast2 Hi0) as Hne. simpl in Hne. congruence.
Qed.

Section Word.
Variable w : list nat.
Hypothesis Hord : ordinary nterm w.

Notation astep' := (astep g (action_of tb) (goto_of tb) (length w)).
Notation R' := (R tb c nterm discard w).

Definition Inv (x : cfg) : Prop :=
  let '(stk, inp, _) := x in path stk /\ syield stk ++ inp = tokens_of w.

Lemma inv_step x : Inv x ->
  match astep' x with
  | ANext x' => Inv x'
  | AStuck => False
  | _ => True
  end.
Proof.
  destruct x as [[stk inp] tr]. intros [Hpath Hy]. unfold astep, action_of.
  destruct (find (t_actions tb) (Z.of_nat (topst stk)) (Z.of_nat (la_of inp))) as [v| |] eqn:Hf; auto.
  destruct (Z_lt_dec v 0) as [Hv|Hv].
  - destruct (path_reduce _ _ _ Hpath Hf Hv)
      as (p & pr & ch & rest & us & s' & Hvp & _ & Hp & _ & _ & Hpop & Hwf & Hys & Hg & _ & Hpath').
    rewrite (decode_action_reduce _ _ Hv Hvp), Hp, Hpop, Hg. split; [exact Hpath'|].
    simpl. rewrite (proj2 (wt_yield g) _ _ _ Hwf), <- Hys. exact Hy.
  - destruct (val_found Hval _ _ _ (path_top_lt _ Hpath) Hf)
      as [_ [->|Hna Hv0 Hne Hs' Hpast|p pr Hv' _ _ _ _ _ _]]; [exact I| |lia].
    rewrite (decode_action_shift _ Hna Hv0). rewrite Nat2Z.id in Hne, Hpast.
    destruct inp as [|[t i] inp']; simpl in *; [congruence|].
    split.
    + econstructor; eauto. constructor.
    + simpl. rewrite <- app_assoc. exact Hy.
Qed.

Lemma inv_accept x : Inv x -> astep' x = AAcc -> sentence g (tokens_of w).
Proof.
  destruct x as [[stk inp] tr]. intros [Hpath Hy] Hacc. apply astep_acc in Hacc.
  unfold action_of in Hacc.
  destruct (find (t_actions tb) (Z.of_nat (topst stk)) (Z.of_nat (la_of inp))) as [v| |] eqn:Hf;
    try discriminate.
  inversion Hacc as [Hd]. apply decode_action_acc in Hd. subst v.
  destruct (val_found Hval _ _ _ (path_top_lt _ Hpath) Hf)
    as [_ [_ Heof Hitem|Hna _ _ _ _|p pr Hv _ _ _ _ _ _]];
    [|contradiction|unfold accept_code in Hv; lia].
  rewrite Nat2Z.id in Heof.
  assert (inp = []) as ->.
  { pose proof (Forall_tokens_from (fun t => 2 <= t < nterm) w 0 Hord) as Hge.
    change (tokens_from 0 w) with (tokens_of w) in Hge.
    rewrite <- Hy in Hge. apply Forall_app in Hge as [_ Hge].
    destruct inp as [|[t i] inp']; auto. inversion Hge; subst. simpl in *. unfold eof in Heof. lia. }
  rewrite app_nil_r in Hy.
  destruct (path_accept _ Hpath Hitem) as (s & X & t & u & -> & Hs & Hwt).
  simpl in Hy. rewrite (proj1 (wt_yield g) _ _ _ Hwt) in Hy. subst u. exists X, t. auto.
Qed.

Lemma ploop_inv fuel : forall s stk inp tr,
  R' stk inp tr s -> Inv (stk, inp, tr) ->
  ploop tb eb false discard fuel s <> Crash /\
  (forall s', ploop tb eb false discard fuel s = Accept s' -> sentence g (tokens_of w)).
Proof.
  induction fuel as [|f IH]; intros s stk inp tr HR HI.
  - simpl. split; [discriminate|]. intros; discriminate.
  - rewrite ploop_unfold.
    pose proof (sim_step g tb c nterm eb discard Hval w (S f) stk inp tr s HR) as Hsim.
    pose proof (inv_step _ HI) as Hstep.
    pose proof (inv_accept _ HI) as Hacc.
    destruct (astep g (action_of tb) (goto_of tb) (length w) (stk, inp, tr)) as [[[stk' inp'] tr']| | |].
    + destruct Hsim as (s' & Hp & HR'). rewrite Hp. eapply IH; eauto.
    + rewrite Hsim. split; [discriminate|]. intros. apply Hacc. reflexivity.
    + rewrite Hsim. split; [discriminate|]. intros; discriminate.
    + destruct Hstep.
Qed.

Lemma parse_inv fuel :
  parse tb eb false discard fuel (zs w) <> Crash /\
  (forall s, parse tb eb false discard fuel (zs w) = Accept s -> sentence g (tokens_of w)).
Proof.
  destruct (R_init tb c nterm discard w Hord) as (s0 & Hrd & HR0).
  unfold parse. rewrite Hrd. eapply ploop_inv; eauto.
  split; [constructor|reflexivity].
Qed.

End Word.

Theorem parse_sound : forall w fuel s, ordinary nterm w ->
  parse tb eb false discard fuel (zs w) = Accept s -> sentence g (tokens_of w).
Proof. intros w fuel s Hord H. eapply (proj2 (parse_inv w Hord fuel)); eauto. Qed.

Theorem parse_no_crash : forall w fuel, ordinary nterm w ->
  parse tb eb false discard fuel (zs w) <> Crash.
Proof. intros w fuel Hord. apply (proj1 (parse_inv w Hord fuel)). Qed.

Theorem parse_exact : forall w, ordinary nterm w ->
  ((exists fuel s, parse tb eb false discard fuel (zs w) = Accept s) <-> sentence g (tokens_of w)).
Proof.
  intros w Hord. split.
  - intros (fuel & s & H). eapply parse_sound; eauto.
  - apply (parse_complete g tb c nterm eb discard Hval); auto.
Qed.

End Sound.

Print Assumptions parse_sound.
Print Assumptions parse_no_crash.
Print Assumptions parse_exact.
