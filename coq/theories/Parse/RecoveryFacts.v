(* What the validator gives for the pieces of _recover / _makeError /
   _readToken: none can index out of range on a stack whose states are valid. *)
From Coq Require Import List ZArith Lia Bool.
From Lox Require Import Base.ListFacts Parse.Grammar Parse.Tables Parse.Validator
  Parse.ValidatorFacts Parse.ParseRuntime Parse.Refine.
Import ListNotations.

Definition tokish (v : value) : Prop :=
  match v with VTok _ _ | VErr _ _ => True | _ => False end.

Lemma tokish_latok v : tokish v -> exists t, latok v = Some t.
Proof. destruct v; simpl; intros H; try destruct H; eauto. Qed.

Lemma keys_scan_some f1 : forall f2 t i e acc row,
  row_entries f1 t i e = Some row -> (e - i <= 2 * Z.of_nat f1)%Z ->
  row_keys_scan f2 t i e acc <> None.
Proof.
  induction f1 as [|f1 IH]; intros f2 t i e acc row Hr Hb.
  - destruct f2; simpl; [discriminate|].
    destruct (i <? e)%Z eqn:E; [apply Z.ltb_lt in E; lia|discriminate].
  - simpl in Hr. destruct (i <? e)%Z eqn:E.
    + destruct (nthz t i) as [k|] eqn:Hk; [|discriminate].
      destruct (nthz t (i + 1)) as [v|]; [|discriminate].
      destruct (row_entries f1 t (i + 2) e) as [rest|] eqn:Hrest; [|discriminate].
      destruct f2; simpl; [discriminate|]. rewrite E, Hk.
      eapply IH; eauto. lia.
    + destruct f2; simpl; [discriminate|]. rewrite E. discriminate.
Qed.

Lemma row_keys_some t y row : row_of t y = Some row -> row_keys t (Z.of_nat y) <> None.
Proof.
  unfold row_of, row_keys. intros H.
  destruct (nthz t (Z.of_nat y)) as [i|]; [|discriminate].
  destruct (nthz t i) as [count|]; [|discriminate].
  destruct ((count <? 0)%Z || negb (Z.even count)) eqn:E; [discriminate|].
  apply orb_false_iff in E as [E1 E2]. apply Z.ltb_ge in E1.
  eapply keys_scan_some; eauto. lia.
Qed.

Lemma recover_sim_reduce tb f top st0 look v tc rule ex rest ns :
  find (t_actions tb) top ERROR = FFound v -> (v < 0)%Z ->
  nthz (t_term_counts tb) (- v) = Some tc -> nthz (t_rules tb) (- v) = Some rule -> (0 <= tc)%Z ->
  skipn (Z.to_nat tc) (top :: st0) = ex :: rest ->
  find (t_goto tb) ex rule = FFound ns \/ find (t_goto tb) ex rule = FNone /\ ns = 0%Z ->
  recover_sim tb (S f) (top :: st0) look = recover_sim tb f (ns :: ex :: rest) look.
Proof.
  intros Hf Hv Htc Hrule Htc0 Hsk Hg. cbn [recover_sim].
  rewrite Hf, (proj2 (Z.ltb_lt _ _) Hv), Htc, Hrule, (proj2 (Z.ltb_ge _ _) Htc0).
  assert (Hlen : (Z.of_nat (length (top :: st0)) <=? tc)%Z = false).
  { apply Z.leb_gt. destruct (le_lt_dec (length (top :: st0)) (Z.to_nat tc)) as [H|H]; [|lia].
    rewrite skipn_all2 in Hsk by exact H. discriminate. }
  rewrite Hlen, Hsk. destruct Hg as [->|[-> ->]]; reflexivity.
Qed.

Lemma recover_sim_shift tb f top st0 look v :
  find (t_actions tb) top ERROR = FFound v -> (0 <= v)%Z ->
  recover_sim tb (S f) (top :: st0) look =
  match find (t_actions tb) v look with FCrash => SimCrash | FNone => SimNo | FFound _ => SimYes end.
Proof.
  intros Hf Hv. cbn [recover_sim]. rewrite Hf, (proj2 (Z.ltb_ge _ _) Hv). reflexivity.
Qed.

Section Facts.
Variable g : grammar.
Variable tb : tables.
Variable c : cert.
Variable nterm : nat.
Hypothesis Hval : validate g tb c nterm = true.

Notation nst := (nstates c).

Definition valid_item (it : sitem) : Prop := exists st, i_state it = Z.of_nat st /\ st < nst.

Lemma make_error_some s ty id top :
  lasym s = VTok ty id -> peek (stack s) 0 = Some top -> valid_item top ->
  exists ks, make_error tb s = Some (VErr (lasym s) ks).
Proof.
  intros Hl Hp (st & Hst & Hlt). unfold make_error. rewrite Hl, Hp, Hst.
  destruct (val_rows g tb c nterm Hval st Hlt) as [Hr _]. unfold check_action_row in Hr.
  destruct (row_of (t_actions tb) st) as [row|] eqn:Hrow; [|discriminate].
  pose proof (row_keys_some _ _ _ Hrow) as Hk.
  destruct (row_keys (t_actions tb) (Z.of_nat st)) as [ks|]; [|congruence]. eauto.
Qed.

Lemma read_real s l top :
  qla s = (-1)%Z -> input s = zs l -> peek (stack s) 0 = Some top -> valid_item top ->
  exists s', read_token tb s = Some s' /\ stack s' = stack s /\ trace s' = trace s /\
             qla s' = (-1)%Z /\ qlasym s' = qlasym s /\ tokish (lasym s') /\
             la s' = Z.of_nat (hd 0 l) /\ input s' = zs (tl l).
Proof.
  intros Hq Hin Hp Hv. unfold read_token. rewrite Hq. cbn [Z.eqb negb Z.opp Pos.eqb]. unfold lex_read. rewrite Hin.
  destruct l as [|t r]; cbn [zs map hd tl].
  - cbn [Z.eqb EOF ERROR]. eexists. split; [reflexivity|]. cbn. rewrite Hin. repeat split; auto.
  - destruct (Z.of_nat t =? ERROR)%Z eqn:E.
    + match goal with |- context [make_error tb ?s2] =>
        destruct (make_error_some s2 (Z.of_nat t) (pos s) top) as (ks & Hk); auto; rewrite Hk end.
      eexists. split; [reflexivity|]. cbn. repeat split; auto.
    + eexists. split; [reflexivity|]. cbn. repeat split; auto.
Qed.

Definition valid_state (z : Z) : Prop := exists st, z = Z.of_nat st /\ st < nst.

Lemma valid_items_states cs : Forall valid_item cs -> Forall valid_state (map i_state cs).
Proof.
  induction 1 as [|it cs (st & Hst & Hlt) H IH]; simpl; constructor; auto. exists st. auto.
Qed.

Lemma recover_sim_nocrash f : forall states look, states <> [] -> Forall valid_state states ->
  recover_sim tb f states look <> SimCrash.
Proof.
  induction f as [|f IH]; intros states look Hne Hv; cbn [recover_sim]; [discriminate|].
  destruct states as [|state st0]; [congruence|].
  pose proof Hv as Hv0. inversion Hv0 as [|? ? (st & -> & Hst) Hv']; subst.
  pose proof (val_action_find Hval st ERROR Hst) as Hnc.
  destruct (find (t_actions tb) (Z.of_nat st) ERROR) as [action| |] eqn:Hf; [clear Hnc|discriminate|destruct Hnc].
  destruct (val_found Hval _ _ _ Hst Hf) as [_ [_ He _|_ Hge _ Hlt _|p pr Hneg _ _ _ _ Hr Htc]].
  - discriminate He.
  - rewrite (proj2 (Z.ltb_ge _ _) Hge).
    pose proof (val_action_find Hval (Z.to_nat action) look Hlt) as Hf2.
    rewrite Z2Nat.id in Hf2 by exact Hge.
    destruct (find (t_actions tb) action look); [discriminate|discriminate|destruct Hf2].
  - rewrite (proj2 (Z.ltb_lt _ _) Hneg), Htc, Hr, (proj2 (Z.ltb_ge _ _) (Nat2Z.is_nonneg _)).
    destruct (Z.of_nat (length (Z.of_nat st :: st0)) <=? Z.of_nat (length (rhs pr)))%Z eqn:E4; [discriminate|].
    apply Z.leb_gt in E4. rewrite Nat2Z.id.
    pose proof (Forall_skipn' valid_state (length (rhs pr)) _ Hv) as Hvr.
    pose proof (skipn_length (length (rhs pr)) (Z.of_nat st :: st0)) as Hlen.
    destruct (skipn (length (rhs pr)) (Z.of_nat st :: st0)) as [|exposed rest]; [cbn [length] in Hlen, E4; lia|].
    inversion Hvr as [|? ? (ex & -> & Hex) Hvrest]; subst.
    pose proof (val_goto_find g tb c nterm Hval ex (Z.of_nat (lhs pr)) Hex) as Hg.
    destruct (find (t_goto tb) (Z.of_nat ex) (Z.of_nat (lhs pr))) as [st'| |]; [| |destruct Hg];
      (apply IH; [discriminate|constructor; auto]).
    + destruct Hg as (_ & H0 & Hlt & _). exists (Z.to_nat st'). split; auto. rewrite Z2Nat.id; lia.
    + exists 0. split; auto. apply (val_nstates Hval).
Qed.

Lemma recover_pops_nocrash f look : forall cs e, Forall valid_item cs ->
  recover_pops tb f cs look e <> PCrash.
Proof.
  induction cs as [|top cs IH]; intros e Hv; cbn [recover_pops]; [discriminate|].
  inversion Hv as [|? ? Htop Hv']; subst.
  destruct (recover_sim tb f (map i_state (top :: cs)) look) eqn:E; try discriminate.
  - apply IH. exact Hv'.
  - exfalso. apply (recover_sim_nocrash f (map i_state (top :: cs)) look);
      [simpl; discriminate|apply valid_items_states; exact Hv|exact E].
Qed.

End Facts.
