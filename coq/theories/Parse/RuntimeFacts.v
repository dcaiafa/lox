(* One iteration of parse() restated as do_action over do_shift / do_reduce
   (pstep_eq, by reflexivity); the later proofs go through that form.  Holds for
   arbitrary tables and both values of rec_enabled and emit_bounds; only
   Section Act needs validate. *)
From Coq Require Import List ZArith Lia Bool.
From Lox Require Import Base.ListFacts Parse.Grammar Parse.Tables Parse.Validator Parse.Actions
  Parse.LRAbstract Parse.ValidatorFacts Parse.ParseRuntime.
Import ListNotations.

Lemma geb0_true v : (v >=? 0)%Z = true <-> (0 <= v)%Z.
Proof. rewrite Z.geb_leb. apply Z.leb_le. Qed.

Lemma geb0_false v : (v >=? 0)%Z = false <-> (v < 0)%Z.
Proof. rewrite Z.geb_leb. apply Z.leb_gt. Qed.

Lemma apop_eq n (stk : list (nat * tree)) ch rest :
  LRAbstract.pop n stk = Some (ch, rest) ->
  n <= length stk /\ ch = rev (map snd (firstn n stk)) /\ rest = skipn n stk.
Proof.
  revert stk ch rest. induction n as [|n IH]; intros stk ch rest H; simpl in H.
  - inversion H. simpl. auto with arith.
  - destruct stk as [|[s t] stk]; [discriminate|].
    destruct (LRAbstract.pop n stk) as [[ts r]|] eqn:E; [|discriminate].
    inversion H; subst. destruct (IH _ _ _ E) as (H1 & -> & ->).
    simpl. auto with arith.
Qed.

Lemma peek_sym_nth cs j : peek_sym cs j = option_map i_sym (nth_error cs j).
Proof. unfold peek_sym, peek. destruct (nth_error cs j); reflexivity. Qed.

Lemma peek_args_firstn n : forall cs, n <= length cs ->
  peek_args cs n = Some (rev (map i_sym (firstn n cs))).
Proof.
  induction n as [|n IH]; intros cs Hn; [reflexivity|].
  cbn [peek_args]. rewrite peek_sym_nth, IH by lia.
  destruct (nth_error cs n) as [x|] eqn:E; [|apply nth_error_None in E; lia].
  rewrite (firstn_S_nth _ _ _ E), map_app, rev_app_distr. reflexivity.
Qed.

Section ReadToken.
Variable tb : tables.

Lemma read_token_frame s s' : read_token tb s = Some s' ->
  stack s' = stack s /\ trace s' = trace s /\
  shifts s' = shifts s /\ rec_shifts s' = rec_shifts s.
Proof.
  unfold read_token. destruct (negb (qla s =? -1)%Z).
  - intros H; inversion H; auto.
  - unfold lex_read. destruct (input s) as [|ty rest]; cbv beta iota zeta.
    + intros H; inversion H; auto.
    + destruct (ty =? ERROR)%Z; [|intros H; inversion H; auto].
      match goal with |- context [make_error tb ?x] => destruct (make_error tb x) end;
        intros H; inversion H; auto.
Qed.

Lemma read_token_queued s : qla s <> (-1)%Z ->
  read_token tb s = Some (set_la s (qla s) (qlasym s) (-1)%Z VNil).
Proof.
  intros Hq. unfold read_token. rewrite (proj2 (Z.eqb_neq _ _) Hq). reflexivity.
Qed.

Lemma read_token_fresh s s' : qla s = (-1)%Z -> read_token tb s = Some s' ->
  la s' = hd EOF (input s) /\ qla s' = (-1)%Z /\ qlasym s' = qlasym s /\
  input s' = tl (input s) /\
  pos s' = (match input s with [] => pos s | _ :: _ => S (pos s) end) /\
  (if (la s' =? ERROR)%Z then exists ks, lasym s' = VErr (VTok ERROR (pos s)) ks
   else lasym s' = VTok (la s') (pos s)).
Proof.
  intros Hq. unfold read_token. rewrite Hq. cbn [Z.eqb negb Z.opp Pos.eqb]. unfold lex_read.
  destruct (input s) as [|ty rest] eqn:Hin; cbv beta iota zeta.
  - intros H; inversion H; subst s'. cbn. repeat split; auto.
  - destruct (ty =? ERROR)%Z eqn:E.
    + unfold make_error. cbn [set_la lasym stack].
      destruct (peek (stack s) 0) as [top|]; [|discriminate].
      destruct (row_keys (t_actions tb) (i_state top)) as [ks|]; [|discriminate].
      intros H; inversion H; subst s'. cbn. rewrite E. apply Z.eqb_eq in E. subst ty.
      repeat split; auto. eauto.
    + intros H; inversion H; subst s'. cbn. rewrite E. repeat split; auto.
Qed.

Lemma read_token_some s : qla s = (-1)%Z -> hd EOF (input s) <> ERROR ->
  exists s', read_token tb s = Some s'.
Proof.
  intros Hq Hne. unfold read_token. rewrite Hq. cbn [Z.eqb negb Z.opp Pos.eqb]. unfold lex_read.
  destruct (input s) as [|ty rest]; cbv beta iota zeta; simpl in Hne;
    rewrite (proj2 (Z.eqb_neq _ _) Hne); eauto.
Qed.

End ReadToken.

Section Step.
Variable tb : tables.
Variable eb : bool.
Variable discard : value -> bool.

(* None is the failed type assertion *)
Definition shift_bounds (v : value) : option bounds :=
  if eb then
    match latok v with
    | Some t => Some {| b_begin := t; b_end := t; b_empty := false |}
    | None => None
    end
  else Some no_bounds.

Definition shift_state (s : pstate) (v : Z) (b : bounds) : pstate :=
  let s0 := set_stack s ({| i_state := v; i_sym := lasym s; i_bounds := b |} :: stack s) in
  if (la s =? ERROR)%Z then s0 else set_shifts s0 (shifts s + 1)%Z (rec_shifts s).

Definition do_shift (s : pstate) (v : Z) : outcome :=
  match shift_bounds (lasym s) with
  | None => Crash
  | Some b =>
    match read_token tb (shift_state s v b) with
    | None => Crash
    | Some s2 => Continue s2
    end
  end.

Definition red_bounds (st : list sitem) (n : nat) : option bounds :=
  if eb then
    match peek_slice st n with
    | None => None
    | Some sl => Some (reduce_bounds sl)
    end
  else Some no_bounds.

(* what _act and _onBounds add to the trace, newest first *)
Definition red_events (p : Z) (res : value) (b : bounds) : list event :=
  if eb && negb (b_empty b) then [EBounds res (b_begin b) (b_end b); ERed p res] else [ERed p res].

Definition red_state (s : pstate) (p : Z) (res : value) (b : bounds) (ns : Z)
    (st' : list sitem) : pstate :=
  set_stack
    (if eb && negb (b_empty b)
     then add_event (add_event s (ERed p res)) (EBounds res (b_begin b) (b_end b))
     else add_event s (ERed p res))
    ({| i_state := ns; i_sym := res; i_bounds := b |} :: st').

Definition do_reduce (s : pstate) (p : Z) : outcome :=
  match nthz (t_term_counts tb) p, nthz (t_rules tb) p, act tb discard (stack s) p with
  | Some tc, Some rule, Some res =>
    if (tc <? 0)%Z then Crash else
    match red_bounds (stack s) (Z.to_nat tc) with
    | None => Crash
    | Some b =>
      match pop (stack s) (Z.to_nat tc) with
      | None => Crash
      | Some st' =>
        match peek st' 0 with
        | None => Crash
        | Some top' =>
          match find (t_goto tb) (i_state top') rule with
          | FCrash => Crash
          | FNone => Continue (red_state s p res b 0 st')
          | FFound ns => Continue (red_state s p res b ns st')
          end
        end
      end
    end
  | _, _, _ => Crash
  end.

Definition do_action (s : pstate) (v : Z) : outcome :=
  if (v =? accept_code)%Z then Accept s
  else if (v >=? 0)%Z then do_shift s v
  else do_reduce s (- v).

Lemma pstep_eq rec f s :
  pstep tb eb rec discard f s =
  match peek (stack s) 0 with
  | None => Crash
  | Some top =>
    match find (t_actions tb) (i_state top) (la s) with
    | FCrash => Crash
    | FNone => if rec then recover tb f s else Reject s
    | FFound v => do_action s v
    end
  end.
Proof. reflexivity. Qed.

Lemma pstep_found rec f s top v :
  peek (stack s) 0 = Some top -> find (t_actions tb) (i_state top) (la s) = FFound v ->
  pstep tb eb rec discard f s = do_action s v.
Proof. intros H1 H2. rewrite pstep_eq, H1, H2. reflexivity. Qed.

Lemma do_action_accept s : do_action s accept_code = Accept s.
Proof. reflexivity. Qed.

Lemma do_action_shift s v : v <> accept_code -> (0 <= v)%Z -> do_action s v = do_shift s v.
Proof.
  intros Hna Hv. unfold do_action.
  rewrite (proj2 (Z.eqb_neq _ _) Hna), (proj2 (geb0_true v) Hv). reflexivity.
Qed.

Lemma do_action_reduce s v : (v < 0)%Z -> do_action s v = do_reduce s (- v).
Proof.
  intros Hv. unfold do_action. rewrite (proj2 (geb0_false v) Hv).
  replace (v =? accept_code)%Z with false; [reflexivity|].
  symmetry. apply Z.eqb_neq. unfold accept_code. lia.
Qed.

Lemma shift_bounds_some v : eb = false \/ (exists t, latok v = Some t) -> exists b, shift_bounds v = Some b.
Proof.
  unfold shift_bounds. intros [->|(t & ->)]; [eauto|]. destruct eb; eauto.
Qed.

Lemma shift_state_frame s v b :
  stack (shift_state s v b) = {| i_state := v; i_sym := lasym s; i_bounds := b |} :: stack s /\
  la (shift_state s v b) = la s /\ lasym (shift_state s v b) = lasym s /\
  qla (shift_state s v b) = qla s /\ qlasym (shift_state s v b) = qlasym s /\
  input (shift_state s v b) = input s /\ pos (shift_state s v b) = pos s /\
  trace (shift_state s v b) = trace s /\
  shifts (shift_state s v b) = (if (la s =? ERROR)%Z then shifts s else shifts s + 1)%Z /\
  rec_shifts (shift_state s v b) = rec_shifts s.
Proof. unfold shift_state. destruct (la s =? ERROR)%Z; repeat split; reflexivity. Qed.

Lemma red_state_frame s p res b ns st' :
  stack (red_state s p res b ns st') = {| i_state := ns; i_sym := res; i_bounds := b |} :: st' /\
  la (red_state s p res b ns st') = la s /\ lasym (red_state s p res b ns st') = lasym s /\
  qla (red_state s p res b ns st') = qla s /\ qlasym (red_state s p res b ns st') = qlasym s /\
  input (red_state s p res b ns st') = input s /\ pos (red_state s p res b ns st') = pos s /\
  trace (red_state s p res b ns st') = red_events p res b ++ trace s /\
  shifts (red_state s p res b ns st') = shifts s /\
  rec_shifts (red_state s p res b ns st') = rec_shifts s.
Proof.
  unfold red_state, red_events. destruct (eb && negb (b_empty b)); repeat split; reflexivity.
Qed.

Lemma red_bounds_some st n : n <= length st ->
  red_bounds st n = Some (if eb then reduce_bounds (rev (firstn n st)) else no_bounds).
Proof.
  intros Hn. unfold red_bounds, peek_slice. rewrite (proj2 (Nat.leb_le _ _) Hn).
  destruct eb; reflexivity.
Qed.

Lemma do_reduce_eq s p tc rule res top' r :
  nthz (t_term_counts tb) p = Some tc -> nthz (t_rules tb) p = Some rule ->
  act tb discard (stack s) p = Some res ->
  (0 <= tc)%Z -> skipn (Z.to_nat tc) (stack s) = top' :: r ->
  let b := if eb then reduce_bounds (rev (firstn (Z.to_nat tc) (stack s))) else no_bounds in
  do_reduce s p =
  match find (t_goto tb) (i_state top') rule with
  | FCrash => Crash
  | FNone => Continue (red_state s p res b 0 (top' :: r))
  | FFound ns => Continue (red_state s p res b ns (top' :: r))
  end.
Proof.
  intros Htc Hrule Hact Htc0 Hsk b. unfold do_reduce. rewrite Htc, Hrule, Hact.
  rewrite (proj2 (Z.ltb_ge _ _) Htc0).
  assert (Hlen : Z.to_nat tc <= length (stack s)).
  { destruct (le_lt_dec (Z.to_nat tc) (length (stack s))) as [H|H]; [exact H|].
    rewrite skipn_all2 in Hsk by lia. discriminate. }
  rewrite (red_bounds_some _ _ Hlen). unfold pop. rewrite (proj2 (Nat.leb_le _ _) Hlen), Hsk.
  reflexivity.
Qed.

Lemma do_action_continue s v s' : do_action s v = Continue s' ->
  (v <> accept_code /\ (0 <= v)%Z /\
   exists b, shift_bounds (lasym s) = Some b /\ read_token tb (shift_state s v b) = Some s') \/
  ((v < 0)%Z /\
   exists tc rule res top' r ns,
     nthz (t_term_counts tb) (- v) = Some tc /\ nthz (t_rules tb) (- v) = Some rule /\
     act tb discard (stack s) (- v) = Some res /\ (0 <= tc)%Z /\
     Z.to_nat tc <= length (stack s) /\
     skipn (Z.to_nat tc) (stack s) = top' :: r /\
     (find (t_goto tb) (i_state top') rule = FFound ns \/
      find (t_goto tb) (i_state top') rule = FNone /\ ns = 0%Z) /\
     s' = red_state s (- v) res
            (if eb then reduce_bounds (rev (firstn (Z.to_nat tc) (stack s))) else no_bounds)
            ns (top' :: r)).
Proof.
  unfold do_action. destruct (v =? accept_code)%Z eqn:Ea; [discriminate|].
  apply Z.eqb_neq in Ea. destruct (v >=? 0)%Z eqn:Ev.
  - apply geb0_true in Ev. unfold do_shift. intros H. left. split; [exact Ea|]. split; [exact Ev|].
    destruct (shift_bounds (lasym s)) as [b|]; [|discriminate]. exists b. split; [reflexivity|].
    destruct (read_token tb (shift_state s v b)); inversion H. reflexivity.
  - apply geb0_false in Ev. intros H. right. split; [exact Ev|]. unfold do_reduce in H.
    destruct (nthz (t_term_counts tb) (- v)) as [tc|]; [|discriminate].
    destruct (nthz (t_rules tb) (- v)) as [rule|]; [|discriminate].
    destruct (act tb discard (stack s) (- v)) as [res|]; [|discriminate].
    destruct (tc <? 0)%Z eqn:Et; [discriminate|]. apply Z.ltb_ge in Et.
    destruct (le_lt_dec (Z.to_nat tc) (length (stack s))) as [Hlen|Hlen].
    + rewrite (red_bounds_some _ _ Hlen) in H. unfold pop in H.
      rewrite (proj2 (Nat.leb_le _ _) Hlen) in H.
      destruct (skipn (Z.to_nat tc) (stack s)) as [|top' r] eqn:Hsk; [discriminate|].
      cbn [peek nth_error] in H.
      exists tc, rule, res, top', r.
      destruct (find (t_goto tb) (i_state top') rule) as [ns| |] eqn:Hg; inversion H;
        [exists ns|exists 0%Z]; repeat split; auto.
    + unfold pop in H. rewrite (proj2 (Nat.leb_gt _ _) Hlen) in H.
      destruct (red_bounds (stack s) (Z.to_nat tc)); discriminate.
Qed.

Lemma do_action_outcome s v :
  match do_action s v with
  | Accept s' => s' = s
  | Reject _ | Fuel => False
  | _ => True
  end.
Proof.
  unfold do_action, do_shift, do_reduce. destruct (v =? accept_code)%Z; [reflexivity|].
  destruct (v >=? 0)%Z.
  - destruct (shift_bounds (lasym s)); [|exact I].
    destruct (read_token tb (shift_state s v b)); exact I.
  - destruct (nthz (t_term_counts tb) (- v)) as [tc|]; [|exact I].
    destruct (nthz (t_rules tb) (- v)) as [rule|]; [|exact I].
    destruct (act tb discard (stack s) (- v)); [|exact I].
    destruct (tc <? 0)%Z; [exact I|].
    destruct (red_bounds (stack s) (Z.to_nat tc)); [|exact I].
    destruct (pop (stack s) (Z.to_nat tc)) as [st'|]; [|exact I].
    destruct (peek st' 0) as [top'|]; [|exact I].
    destruct (find (t_goto tb) (i_state top') rule); exact I.
Qed.

Lemma do_action_not_fuel s v : do_action s v <> Fuel.
Proof. intros H. pose proof (do_action_outcome s v) as Ho. rewrite H in Ho. exact Ho. Qed.

Lemma recover_sim_mono f1 : forall f2 st look r, f1 <= f2 -> r <> SimFuel ->
  recover_sim tb f1 st look = r -> recover_sim tb f2 st look = r.
Proof.
  induction f1 as [|f1 IH]; intros f2 st look r Hle Hr H.
  - simpl in H. congruence.
  - destruct f2 as [|f2]; [lia|]. cbn [recover_sim] in *.
    destruct st as [|state st0]; auto.
    destruct (find (t_actions tb) state ERROR) as [action| |]; auto.
    destruct (action <? 0)%Z; auto.
    destruct (nthz (t_term_counts tb) (- action)) as [tc|]; auto.
    destruct (nthz (t_rules tb) (- action)) as [rule|]; auto.
    destruct (tc <? 0)%Z; auto.
    destruct (Z.of_nat (length (state :: st0)) <=? tc)%Z; auto.
    destruct (skipn (Z.to_nat tc) (state :: st0)) as [|exposed rest]; auto.
    destruct (find (t_goto tb) exposed rule) as [st'| |]; auto; apply IH; auto; lia.
Qed.

Lemma recover_pops_mono f1 f2 look : f1 <= f2 -> forall st e r, r <> PFuel ->
  recover_pops tb f1 st look e = r -> recover_pops tb f2 st look e = r.
Proof.
  intros Hle. induction st as [|top st IH]; intros e r Hr H; cbn [recover_pops] in *; auto.
  destruct (recover_sim tb f1 (map i_state (top :: st)) look) eqn:E;
    try (apply (recover_sim_mono f1 f2) in E; [rewrite E; auto|exact Hle|discriminate]).
  congruence.
Qed.

Lemma skip_errors_mono f1 : forall f2 s o, f1 <= f2 -> o <> Fuel ->
  skip_errors tb f1 s = o -> skip_errors tb f2 s = o.
Proof.
  induction f1 as [|f1 IH]; intros f2 s o Hle Ho H.
  - simpl in H. congruence.
  - destruct f2 as [|f2]; [lia|]. simpl in *.
    destruct (la s =? ERROR)%Z; auto.
    destruct (read_token tb s) as [s'|]; auto. apply IH; auto. lia.
Qed.

Lemma recover_outer_mono f1 : forall f2 e s o, f1 <= f2 -> o <> Fuel ->
  recover_outer tb f1 e s = o -> recover_outer tb f2 e s = o.
Proof.
  induction f1 as [|f1 IH]; intros f2 e s o Hle Ho H.
  - simpl in H. congruence.
  - destruct f2 as [|f2]; [lia|].
    cbn [recover_outer] in *.
    destruct (recover_pops tb (S f1) (stack s) (la s) e) as [st' e'|e'| |] eqn:E;
      try (apply (recover_pops_mono (S f1) (S f2)) in E; [rewrite E|exact Hle|discriminate]);
      try exact H; try congruence.
    destruct (la s =? EOF)%Z; auto. destruct (read_token tb s); auto. apply IH; auto; lia.
Qed.

Lemma drop_if_stuck_mono f1 f2 s o : f1 <= f2 -> o <> Fuel ->
  drop_if_stuck tb f1 s = o -> drop_if_stuck tb f2 s = o.
Proof.
  intros Hle Ho H. unfold drop_if_stuck in *.
  destruct (shifts s =? rec_shifts s)%Z; auto.
  destruct (la s =? EOF)%Z; auto.
  destruct (read_token tb s); auto. eapply skip_errors_mono; eauto.
Qed.

Lemma recover_mono f1 f2 s o : f1 <= f2 -> o <> Fuel ->
  recover tb f1 s = o -> recover tb f2 s = o.
Proof.
  intros Hle Ho H. unfold recover in *.
  destruct (match lasym s with VErr _ _ => Some (lasym s) | _ => make_error tb s end) as [e|]; auto.
  destruct (skip_errors tb f1 s) as [s1| | | |] eqn:E;
    try (apply (skip_errors_mono f1 f2) in E; [rewrite E|exact Hle|discriminate]); auto;
    [|congruence].
  destruct (drop_if_stuck tb f1 s1) as [s2| | | |] eqn:E2;
    try (apply (drop_if_stuck_mono f1 f2) in E2; [rewrite E2|exact Hle|discriminate]); auto.
  - eapply recover_outer_mono; eauto.
  - congruence.
Qed.

Variable rec : bool.

Lemma pstep_mono f1 f2 s o : f1 <= f2 -> o <> Fuel ->
  pstep tb eb rec discard f1 s = o -> pstep tb eb rec discard f2 s = o.
Proof.
  intros Hle Ho H. rewrite pstep_eq in *.
  destruct (peek (stack s) 0) as [top|]; auto.
  destruct (find (t_actions tb) (i_state top) (la s)) as [v| |]; auto.
  destruct rec; auto. eapply recover_mono; eauto.
Qed.

Lemma ploop_unfold f s :
  ploop tb eb rec discard (S f) s =
  match pstep tb eb rec discard (S f) s with
  | Continue s' => ploop tb eb rec discard f s'
  | o => o
  end.
Proof. reflexivity. Qed.

Lemma ploop_mono_rec f1 : forall f2 s o, f1 <= f2 -> o <> Fuel ->
  ploop tb eb rec discard f1 s = o -> ploop tb eb rec discard f2 s = o.
Proof.
  induction f1 as [|f1 IH]; intros f2 s o Hle Ho H.
  - simpl in H. congruence.
  - destruct f2 as [|f2]; [lia|]. rewrite ploop_unfold in *.
    destruct (pstep tb eb rec discard (S f1) s) as [s'| | | |] eqn:E;
      try (apply (pstep_mono (S f1) (S f2)) in E; [rewrite E|exact Hle|discriminate]); auto.
    + apply IH; auto; lia.
    + congruence.
Qed.

Theorem parse_fuel_monotone_rec f1 f2 zw o : f1 <= f2 -> o <> Fuel ->
  parse tb eb rec discard f1 zw = o -> parse tb eb rec discard f2 zw = o.
Proof.
  unfold parse. intros Hle Ho. destruct (read_token tb (init_state zw)); auto.
  apply ploop_mono_rec; auto.
Qed.

Lemma parse_det f1 f2 zw o1 o2 :
  parse tb eb rec discard f1 zw = o1 -> parse tb eb rec discard f2 zw = o2 ->
  o1 <> Fuel -> o2 <> Fuel -> o1 = o2.
Proof.
  intros H1 H2 Ho1 Ho2.
  apply (parse_fuel_monotone_rec f1 (Nat.max f1 f2)) in H1; [|apply Nat.le_max_l|exact Ho1].
  apply (parse_fuel_monotone_rec f2 (Nat.max f1 f2)) in H2; [|apply Nat.le_max_r|exact Ho2].
  congruence.
Qed.

Lemma ploop_never_continue : forall f s s', ploop tb eb rec discard f s <> Continue s'.
Proof.
  induction f as [|f IH]; intros s s'; [discriminate|]. rewrite ploop_unfold.
  destruct (pstep tb eb rec discard (S f) s); try discriminate. apply IH.
Qed.

End Step.

Section Act.
Variable g : grammar.
Variable tb : tables.
Variable c : cert.
Variable nterm : nat.
Variable discard : value -> bool.
Hypothesis Hval : validate g tb c nterm = true.

Lemma act_spec cs p pr :
  nth_error g p = Some pr -> p <> 0 -> length (rhs pr) <= length cs ->
  act tb discard cs (Z.of_nat p) =
  Some (act_val tb discard p (rev (map i_sym (firstn (length (rhs pr)) cs)))).
Proof.
  intros Hp Hp0 Hlen.
  destruct (val_kinds g tb c nterm Hval p pr Hp) as (k & Hk & Hshape).
  destruct (val_arrays g tb c nterm Hval p pr Hp) as [_ Htc].
  unfold act, act_val, kind_of. rewrite (nth_error_nth _ _ KUser Hk).
  replace (Z.of_nat p <? 0)%Z with false by (symmetry; apply Z.ltb_ge; lia).
  rewrite Nat2Z.id, Hk, Htc, !peek_sym_nth.
  remember (length (rhs pr)) as n eqn:Heqn. clear Heqn Htc Hk Hp.
  (* the generated kinds fix n <= 3: both sides compute on the first entries of cs;
     KSPrime contradicts p <> 0; what is left is KUser *)
  inversion Hshape as [Hq|Hq [-> | ->]|Hq [-> | ->]|Hq [-> | ->]|Hq [-> | ->]|Hq [-> | ->]|Hq];
    subst k; try contradiction;
    try (destruct cs as [|x0 [|x1 [|x2 cs]]]; simpl in Hlen; try lia; reflexivity).
  replace (Z.of_nat n <? 0)%Z with false by (symmetry; apply Z.ltb_ge; lia).
  rewrite Nat2Z.id, peek_args_firstn by lia. reflexivity.
Qed.

End Act.
