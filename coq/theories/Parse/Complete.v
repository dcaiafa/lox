(* Completeness of the generated parser w.r.t. the grammar, uniqueness of parse
   trees and fuel monotonicity. *)
From Coq Require Import List Arith Lia.
From Lox Require Import Base.ListFacts Parse.Grammar Parse.Tables Parse.Validator Parse.Actions
  Parse.LRAbstract Parse.ValidatorFacts Parse.ParseRuntime Parse.RuntimeFacts Parse.Refine.
Import ListNotations.

(* induction over trees with the hypothesis for all children; Coq's tree_ind has none *)
Section TreeInd.
Variable P : tree -> Prop.
Hypothesis Hleaf : forall tok, P (Leaf tok).
Hypothesis Hnode : forall p ch, Forall P ch -> P (Node p ch).
Fixpoint tree_ind' (t : tree) : P t :=
  match t with
  | Leaf tok => Hleaf tok
  | Node p ch =>
    Hnode p ch ((fix go (l : list tree) : Forall P l :=
                   match l with
                   | [] => Forall_nil P
                   | x :: r => Forall_cons x (tree_ind' x) (go r)
                   end) ch)
  end.
End TreeInd.

Section Fuel.
Variable tb : tables.
Variable eb : bool.
Variable discard : value -> bool.

Theorem parse_fuel_monotone w f1 f2 s : f1 <= f2 ->
  parse tb eb false discard f1 (zs w) = Accept s -> parse tb eb false discard f2 (zs w) = Accept s.
Proof. intros. eapply parse_fuel_monotone_rec; eauto. discriminate. Qed.

Theorem parse_fuel_monotone_reject w f1 f2 s : f1 <= f2 ->
  parse tb eb false discard f1 (zs w) = Reject s -> parse tb eb false discard f2 (zs w) = Reject s.
Proof. intros. eapply parse_fuel_monotone_rec; eauto. discriminate. Qed.

Theorem parse_fuel_monotone_crash w f1 f2 : f1 <= f2 ->
  parse tb eb false discard f1 (zs w) = Crash -> parse tb eb false discard f2 (zs w) = Crash.
Proof. intros. eapply parse_fuel_monotone_rec; eauto. discriminate. Qed.

End Fuel.

Section Complete.
Variable g : grammar.
Variable tb : tables.
Variable c : cert.
Variable nterm : nat.
Variable eb : bool.
Variable discard : value -> bool.
Hypothesis Hval : validate g tb c nterm = true.

Lemma ev_reds : forall t, map (ev tb discard) (reds t) = reductions tb discard t.
Proof.
  induction t as [tok|p ch IH] using tree_ind'; [reflexivity|].
  simpl reds. simpl reductions. rewrite map_app. simpl. f_equal.
  induction IH as [|x l Hx Hl IHl]; simpl; auto.
  rewrite map_app, Hx, IHl. reflexivity.
Qed.

Lemma abstract_accept_gen nend X t u :
  start_sym g = Some X -> wt g X t u -> Forall (tok_ok nterm) u ->
  exists s', reach g (action_of tb) (goto_of tb) nend ([], u, []) ([(s', t)], [], rev (reds t)) /\
             astep g (action_of tb) (goto_of tb) nend ([(s', t)], [], rev (reds t)) = AAcc.
Proof.
  intros Hs Ht Hu.
  apply (follow_accept g c nterm (action_of tb) (goto_of tb) nend) with (X := X); auto.
  - pose proof (val_nterm g tb c nterm Hval). unfold eof. lia.
  - apply (val_nullable_stable g tb c nterm Hval).
  - apply (val_first_stable g tb c nterm Hval).
  - apply (val_sprime_fresh g tb c nterm Hval).
  - apply (val_init g tb c nterm Hval).
  - intros. eapply (val_closure g tb c nterm Hval); eauto.
  - intros s p pr d a t0 Hi Hp Hd.
    destruct (val_item Hval _ _ _ _ _ Hi Hp) as [H _]. rewrite Hd in H. exact H.
  - intros s p pr d a B Hi Hp Hd.
    destruct (val_item Hval _ _ _ _ _ Hi Hp) as [H _]. rewrite Hd in H.
    destruct H as (s' & H1 & H2 & _). eauto.
  - intros s p pr a Hi Hp Hp0. destruct (val_item Hval _ _ _ _ _ Hi Hp) as [H _].
    rewrite (proj2 (nth_error_None _ _) (le_n _)), (proj2 (Nat.eqb_neq _ _) Hp0) in H. exact H.
  - intros s pr0 Hp Hi. destruct (val_item Hval _ _ _ _ _ Hi Hp) as [H _].
    rewrite (proj2 (nth_error_None _ _) (le_n _)) in H. exact H.
Qed.

Section Word.
Variable w : list nat.
Hypothesis Hord : ordinary nterm w.

Notation reach' := (reach g (action_of tb) (goto_of tb) (length w)).
Notation astep' := (astep g (action_of tb) (goto_of tb) (length w)).

(* generic in the relation that single steps preserve: R here, Rb in Bounds.v *)
Lemma reach_ploop_gen (Rel : cfg -> pstate -> Prop) :
  (forall f x1 x2 s1, Rel x1 s1 -> astep' x1 = ANext x2 ->
     exists s2, pstep tb eb false discard f s1 = Continue s2 /\ Rel x2 s2) ->
  forall x1 x2, reach' x1 x2 -> forall s1, Rel x1 s1 ->
  exists n s2, Rel x2 s2 /\
    forall k, ploop tb eb false discard (n + k) s1 = ploop tb eb false discard k s2.
Proof.
  intros Hsim x1 x2. induction 1 as [x|x1 x2 x3 Hs Hr IH]; intros s1 HR.
  - exists 0, s1. split; auto.
  - destruct (Hsim 0 _ _ _ HR Hs) as (s' & Hp0 & HR').
    destruct (IH s' HR') as (n & s2 & HR2 & Hk).
    exists (S n), s2. split; auto. intros k.
    change (S n + k) with (S (n + k)). rewrite ploop_unfold.
    (* without recovery an iteration does not look at the fuel *)
    change (pstep tb eb false discard (S (n + k)) s1) with (pstep tb eb false discard 0 s1).
    rewrite Hp0. apply Hk.
Qed.

Lemma abstract_accept X t :
  start_sym g = Some X -> wt g X t (tokens_of w) ->
  exists s', reach' ([], tokens_of w, []) ([(s', t)], [], rev (reds t)) /\
             astep' ([(s', t)], [], rev (reds t)) = AAcc.
Proof.
  intros Hs Ht. apply (abstract_accept_gen (length w) X); auto.
  apply (Forall_tokens_from (fun t => t < nterm)). eapply Forall_impl; [|exact Hord]. simpl. lia.
Qed.

Lemma accept_run (Rel : cfg -> pstate -> Prop) X t :
  (forall f x1 x2 s1, Rel x1 s1 -> astep' x1 = ANext x2 ->
     exists s2, pstep tb eb false discard f s1 = Continue s2 /\ Rel x2 s2) ->
  (forall f x s, Rel x s -> astep' x = AAcc -> pstep tb eb false discard f s = Accept s) ->
  (exists s0, read_token tb (init_state (zs w)) = Some s0 /\ Rel ([], tokens_of w, []) s0) ->
  start_sym g = Some X -> wt g X t (tokens_of w) ->
  exists fuel s st,
    parse tb eb false discard fuel (zs w) = Accept s /\ Rel ([(st, t)], [], rev (reds t)) s.
Proof.
  intros Hnext Hacc (s0 & Hrd & H0) Hs Ht.
  destruct (abstract_accept X t Hs Ht) as (st & Hreach & Ha).
  destruct (reach_ploop_gen Rel Hnext _ _ Hreach s0 H0) as (n & s2 & H2 & Hk).
  exists (n + 1), s2, st. split; [|exact H2].
  unfold parse. rewrite Hrd, Hk, ploop_unfold, (Hacc _ _ _ H2 Ha). reflexivity.
Qed.

End Word.

Theorem parse_complete_values : forall w X t,
  ordinary nterm w -> start_sym g = Some X -> wt g X t (tokens_of w) ->
  exists fuel s top bot,
    parse tb eb false discard fuel (zs w) = Accept s /\ stack s = [top; bot] /\
    i_sym top = eval tb discard t /\
    filter (fun e => match e with ERed _ _ => true | _ => false end) (rev (trace s)) =
    reductions tb discard t.
Proof.
  intros w X t Hord Hs Ht.
  destruct (accept_run w Hord
              (fun x s => R tb c nterm discard w (fst (fst x)) (snd (fst x)) (snd x) s) X t)
    as (fuel & s & st & Hp & [Hst _ _ Htr]); auto.
  - intros f [[stk inp] tr] [[stk2 inp2] tr2] s1 HR Hstep.
    destruct (sim_next g tb c nterm eb discard Hval w f _ _ _ _ _ _ _ HR Hstep) as (s2 & H1 & H2 & _).
    eauto.
  - intros f [[stk inp] tr] s HR Ha. exact (sim_acc g tb c nterm eb discard Hval w f _ _ _ _ HR Ha).
  - exact (R_init tb c nterm discard w Hord).
  - simpl in Hst, Htr.
    inversion Hst as [|top s1 t1 cs stk Hst1 Hsym1 Hlt1 Hrel1]; subst.
    inversion Hrel1 as [bot Hb|]; subst.
    exists fuel, s, top, bot. repeat split; auto.
    change (fun e => match e with ERed _ _ => true | _ => false end) with isred.
    rewrite filter_rev', Htr, map_rev, rev_involutive. apply ev_reds.
Qed.

Theorem parse_complete : forall w, ordinary nterm w -> sentence g (tokens_of w) ->
  exists fuel s, parse tb eb false discard fuel (zs w) = Accept s.
Proof.
  intros w Hord (X & t & Hs & Ht).
  destruct (parse_complete_values w X t Hord Hs Ht) as (fuel & s & _ & _ & H & _). eauto.
Qed.

Theorem tree_unique : forall w X t1 t2, ordinary nterm w -> start_sym g = Some X ->
  wt g X t1 (tokens_of w) -> wt g X t2 (tokens_of w) -> t1 = t2.
Proof.
  intros w X t1 t2 Hord Hs H1 H2.
  destruct (abstract_accept w Hord X t1 Hs H1) as (s1 & Hr1 & Ha1).
  destruct (abstract_accept w Hord X t2 Hs H2) as (s2 & Hr2 & Ha2).
  assert (E : ([(s1, t1)], @nil token, rev (reds t1)) = ([(s2, t2)], [], rev (reds t2))).
  { eapply reach_det; [exact Hr1|exact Hr2|..]; congruence. }
  inversion E. reflexivity.
Qed.

End Complete.

Print Assumptions parse_complete.
Print Assumptions parse_complete_values.
Print Assumptions tree_unique.
Print Assumptions parse_fuel_monotone.
Print Assumptions parse_fuel_monotone_reject.
