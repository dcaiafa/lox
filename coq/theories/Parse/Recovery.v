(* The generated parser with error recovery (rec_enabled = true): the
   definitions of the recovery property (err_subst, tokens1) and the facts about
   _recover that need no validator. *)
From Coq Require Import List ZArith Lia.
From Lox Require Import Parse.Grammar Parse.Tables Parse.ParseRuntime Parse.RuntimeFacts Parse.Refine.
Import ListNotations.

(* token numbers a lexer can deliver: ERROR (1) allowed, EOF (0) not; cf. Refine.ordinary (>= 2) *)
Definition tokens1 (nterm : nat) (w : list nat) : Prop := Forall (fun t => 1 <= t < nterm) w.

(* u is w with some contiguous (possibly empty) stretches each replaced by one @error *)
Inductive err_subst : list nat -> list nat -> Prop :=
| es_nil : err_subst [] []
| es_keep t w u : err_subst w u -> err_subst (t :: w) (t :: u)
| es_err d w u : err_subst w u -> err_subst (d ++ w) (error_t :: u).

Lemma err_subst_app a u : err_subst a u -> forall b v, err_subst b v -> err_subst (a ++ b) (u ++ v).
Proof.
  induction 1 as [|t w u H IH|d w u H IH]; intros b v Hb; simpl; auto.
  - constructor. auto.
  - rewrite <- app_assoc. constructor. auto.
Qed.

Lemma err_subst_split u1 : forall w u2, err_subst w (u1 ++ u2) ->
  exists w1 w2, w = w1 ++ w2 /\ err_subst w1 u1 /\ err_subst w2 u2.
Proof.
  induction u1 as [|x u1 IH]; intros w u2 H.
  - exists [], w. repeat split; auto. constructor.
  - simpl in H. inversion H as [|t w' u' H'|d w' u' H']; subst.
    + destruct (IH _ _ H') as (w1 & w2 & -> & H1 & H2).
      exists (x :: w1), w2. repeat split; auto. constructor; auto.
    + destruct (IH _ _ H') as (w1 & w2 & -> & H1 & H2).
      exists (d ++ w1), w2. rewrite app_assoc. repeat split; auto. constructor; auto.
Qed.

Lemma err_subst_all l : err_subst l [error_t].
Proof. rewrite <- (app_nil_r l). constructor. constructor. Qed.

Lemma err_subst_refl l : err_subst l l.
Proof. induction l; constructor; auto. Qed.

Lemma err_subst_no_err w u : err_subst w u -> ~ In error_t u -> u = w.
Proof.
  induction 1 as [|t w u H IH|d w u H IH]; intros Hn; auto.
  - f_equal. apply IH. intros Hin. apply Hn. right. exact Hin.
  - exfalso. apply Hn. left. reflexivity.
Qed.

Section Rec.
Variable tb : tables.
Variable eb : bool.
Variable discard : value -> bool.

Theorem recover_error_token s errs :
  make_error tb s = Some errs ->
  exists ty id top ks,
    lasym s = VTok ty id /\ peek (stack s) 0 = Some top /\
    row_keys (t_actions tb) (i_state top) = Some ks /\
    errs = VErr (lasym s) ks.
Proof.
  unfold make_error. intros H.
  destruct (lasym s) as [|ty id| | | |] eqn:Hl; try discriminate.
  destruct (peek (stack s) 0) as [top|] eqn:Hp; [|discriminate].
  destruct (row_keys (t_actions tb) (i_state top)) as [ks|] eqn:Hk; [|discriminate].
  inversion H; subst. exists ty, id, top, ks. repeat split; auto.
Qed.

(* the value _recover hands to the @error action *)
Definition recover_errsym (s : pstate) : option value :=
  match lasym s with VErr _ _ => Some (lasym s) | _ => make_error tb s end.

Theorem recover_errsym_token s e :
  recover_errsym s = Some e ->
  (exists ty id ks, lasym s = VTok ty id /\ e = VErr (VTok ty id) ks) \/
  (exists t ks, lasym s = VErr t ks /\ e = VErr t ks).
Proof.
  unfold recover_errsym. intros H. destruct (lasym s) as [|ty id|t ks| | |] eqn:Hl;
    try (apply recover_error_token in H as (? & ? & ? & ? & H & _); rewrite Hl in H; discriminate).
  - apply recover_error_token in H as (ty' & id' & top & ks & H1 & _ & _ & ->).
    left. exists ty, id, ks. rewrite Hl. auto.
  - right. inversion H; subst. eauto.
Qed.

Lemma read_token_stack s s' : read_token tb s = Some s' -> stack s' = stack s.
Proof. intros H. apply (read_token_frame _ _ _ H). Qed.

Lemma read_token_qla s s' : read_token tb s = Some s' -> qla s' = (-1)%Z.
Proof.
  intros H. destruct (Z.eq_dec (qla s) (-1)) as [Hq|Hq].
  - apply (read_token_fresh _ _ _ Hq H).
  - rewrite (read_token_queued _ _ Hq) in H. inversion H. reflexivity.
Qed.

(* The loops of _recover only call _readToken: every fact about them is a fact
   about read_token carried along a sequence of reads. *)
Inductive reads : pstate -> pstate -> Prop :=
| reads_refl s : reads s s
| reads_step s s1 s2 : read_token tb s = Some s1 -> reads s1 s2 -> reads s s2.

Lemma reads_frame s s' : reads s s' ->
  stack s' = stack s /\ shifts s' = shifts s /\ rec_shifts s' = rec_shifts s /\
  (s' = s \/ qla s' = (-1)%Z).
Proof.
  induction 1 as [s|s s1 s2 Hrd _ (H1 & H2 & H3 & H4)]; [auto|].
  destruct (read_token_frame _ _ _ Hrd) as (F1 & _ & F2 & F3).
  repeat split; try congruence. right. destruct H4 as [->|H4]; [eapply read_token_qla; eauto|exact H4].
Qed.

Lemma skip_errors_view f : forall s,
  match skip_errors tb f s with
  | Continue s' => reads s s' /\ (la s' =? ERROR)%Z = false
  | Crash => exists s1, reads s s1 /\ read_token tb s1 = None
  | Fuel => True
  | _ => False
  end.
Proof.
  induction f as [|f IH]; intros s; cbn [skip_errors]; auto.
  destruct (la s =? ERROR)%Z eqn:E; [|split; [constructor|exact E]].
  destruct (read_token tb s) as [s1|] eqn:Hrd; [|exists s; split; [constructor|exact Hrd]].
  specialize (IH s1). destruct (skip_errors tb f s1); auto.
  - destruct IH as [H1 H2]. split; [econstructor; eauto|exact H2].
  - destruct IH as (s2 & H1 & H2). exists s2. split; [econstructor; eauto|exact H2].
Qed.

Lemma drop_if_stuck_view f s :
  match drop_if_stuck tb f s with
  | Continue s' =>
      (shifts s <> rec_shifts s /\ s' = s) \/
      (shifts s = rec_shifts s /\ (la s =? EOF)%Z = false /\
       exists s1, read_token tb s = Some s1 /\ reads s1 s')
  | Crash => exists s1, reads s s1 /\ read_token tb s1 = None
  | Accept _ => False
  | _ => True
  end.
Proof.
  unfold drop_if_stuck. destruct (shifts s =? rec_shifts s)%Z eqn:E.
  - apply Z.eqb_eq in E. destruct (la s =? EOF)%Z eqn:El; auto.
    destruct (read_token tb s) as [s1|] eqn:Hrd; [|exists s; split; [constructor|exact Hrd]].
    pose proof (skip_errors_view f s1) as Hv. destruct (skip_errors tb f s1); auto.
    + right. repeat split; auto. exists s1. split; [reflexivity|apply Hv].
    + destruct Hv as (s2 & H1 & H2). exists s2. split; [econstructor; eauto|exact H2].
  - apply Z.eqb_neq in E. left. auto.
Qed.

Definition is_verr (v : value) : Prop := match v with VErr _ _ => True | _ => False end.

(* an Error sitting in a stack entry: that of an earlier recovery whose @error
   production was not reduced yet; a recovery that pops it reports it instead
   of its own *)
Definition held (st : list sitem) (e : value) : Prop :=
  exists it, In it st /\ i_sym it = e /\ is_verr e.

Lemma recover_pops_result f look : forall st e,
  match recover_pops tb f st look e with
  | PFound st' e' => (exists n, n < length st /\ st' = skipn n st) /\ (e' = e \/ held st e')
  | PExhausted e' => e' = e \/ held st e'
  | _ => True
  end.
Proof.
  induction st as [|top st IH]; intros e; cbn [recover_pops]; auto.
  destruct (recover_sim tb f (map i_state (top :: st)) look); auto.
  { split; auto. exists 0. split; [simpl; lia|reflexivity]. }
  specialize (IH (match i_sym top with VErr _ _ => i_sym top | _ => e end)).
  assert (Hup : forall e', e' = match i_sym top with VErr _ _ => i_sym top | _ => e end \/ held st e' ->
                           e' = e \/ held (top :: st) e').
  { intros e' [->|(it & Hin & Hs & Hv)]; [|right; exists it; simpl; auto].
    destruct (i_sym top) eqn:Ht; auto; right; exists top; rewrite Ht; simpl; auto. }
  destruct (recover_pops tb f st look _) as [st' e'|e'| |]; auto.
  destruct IH as [(n & Hn & ->) He]. split; auto. exists (S n). split; [simpl; lia|reflexivity].
Qed.

Lemma recover_outer_view f : forall e s,
  match recover_outer tb f e s with
  | Continue s' =>
      exists s1 n e', reads s s1 /\ (e' = e \/ held (stack s) e') /\ n < length (stack s) /\
        s' = set_shifts (set_la (set_stack s1 (skipn n (stack s))) ERROR e' (la s1) (lasym s1))
                        (shifts s1) (shifts s1)
  | Crash =>
      exists s1, reads s s1 /\
        (read_token tb s1 = None \/ exists f1 e1, recover_pops tb f1 (stack s1) (la s1) e1 = PCrash)
  | Accept _ => False
  | _ => True
  end.
Proof.
  induction f as [|f IH]; intros e s; cbn [recover_outer]; auto.
  pose proof (recover_pops_result (S f) (la s) (stack s) e) as Hp.
  destruct (recover_pops tb (S f) (stack s) (la s) e) as [st' e'|e'| |] eqn:E; auto.
  - destruct Hp as [(n & Hn & ->) He]. exists s, n, e'. repeat split; auto. constructor.
  - destruct (la s =? EOF)%Z; auto.
    destruct (read_token tb s) as [s1|] eqn:Hrd; [|exists s; split; [constructor|auto]].
    specialize (IH e' s1). rewrite (read_token_stack _ _ Hrd) in IH.
    destruct (recover_outer tb f e' s1); auto.
    + destruct IH as (s2 & n & e'' & H1 & H2 & H3 & H4).
      exists s2, n, e''. repeat split; auto; [econstructor; eauto|].
      destruct H2 as [->|H2]; auto.
    + destruct IH as (s2 & H1 & H2). exists s2. split; [econstructor; eauto|exact H2].
  - exists s. split; [constructor|]. right. eauto.
Qed.

Lemma reads_trans s1 s2 s3 : reads s1 s2 -> reads s2 s3 -> reads s1 s3.
Proof. induction 1; eauto using reads. Qed.

Lemma skip_errors_reads f s s' : skip_errors tb f s = Continue s' -> reads s s'.
Proof. intros H. pose proof (skip_errors_view f s) as Hv. rewrite H in Hv. apply Hv. Qed.

Lemma drop_if_stuck_reads f s s' : drop_if_stuck tb f s = Continue s' -> reads s s'.
Proof.
  intros H. pose proof (drop_if_stuck_view f s) as Hv. rewrite H in Hv.
  destruct Hv as [[_ ->]|(_ & _ & s1 & Hrd & Hr)]; eauto using reads.
Qed.

Lemma skip_errors_frame f s s1 : skip_errors tb f s = Continue s1 ->
  stack s1 = stack s /\ shifts s1 = shifts s /\ rec_shifts s1 = rec_shifts s.
Proof.
  intros H. destruct (reads_frame _ _ (skip_errors_reads _ _ _ H)) as (H1 & H2 & H3 & _). auto.
Qed.

(* in particular at the first recovery of a run, where rec_shifts = -1 *)
Lemma drop_if_stuck_idle f s : shifts s <> rec_shifts s -> drop_if_stuck tb f s = Continue s.
Proof.
  intros H. unfold drop_if_stuck.
  destruct (shifts s =? rec_shifts s)%Z eqn:E; [apply Z.eqb_eq in E; contradiction|reflexivity].
Qed.

Lemma recover_continue f s s' : recover tb f s = Continue s' ->
  exists e s1 s2, recover_errsym s = Some e /\ skip_errors tb f s = Continue s1 /\
    drop_if_stuck tb f s1 = Continue s2 /\ recover_outer tb f e s2 = Continue s'.
Proof.
  unfold recover. fold (recover_errsym s). intros H.
  destruct (recover_errsym s) as [e|]; [|discriminate].
  destruct (skip_errors tb f s) as [s1| | | |]; try discriminate.
  destruct (drop_if_stuck tb f s1) as [s2| | | |] eqn:E2; try discriminate.
  exists e, s1, s2. auto.
Qed.

(* s1: the ERROR lookaheads are skipped; s3: a scan of the stack succeeds *)
Lemma recover_view f s :
  match recover tb f s with
  | Continue s' =>
      exists e s1 s3 n e', recover_errsym s = Some e /\
        reads s s1 /\ (la s1 =? ERROR)%Z = false /\ reads s1 s3 /\
        (e' = e \/ held (stack s) e') /\ n < length (stack s) /\
        s' = set_shifts (set_la (set_stack s3 (skipn n (stack s))) ERROR e' (la s3) (lasym s3))
                        (shifts s3) (shifts s3)
  | Crash =>
      recover_errsym s = None \/
      exists s1, reads s s1 /\
        (read_token tb s1 = None \/ exists f1 e1, recover_pops tb f1 (stack s1) (la s1) e1 = PCrash)
  | Accept _ => False
  | _ => True
  end.
Proof.
  unfold recover. fold (recover_errsym s). destruct (recover_errsym s) as [e|]; [|auto].
  pose proof (skip_errors_view f s) as V1.
  destruct (skip_errors tb f s) as [s1| | | |] eqn:E1; auto.
  2:{ destruct V1 as (s1 & Hr & Hn). right. eauto. }
  destruct V1 as [R1 Hla1].
  pose proof (drop_if_stuck_view f s1) as V2.
  destruct (drop_if_stuck tb f s1) as [s2| | | |] eqn:E2; auto.
  2:{ destruct V2 as (s2 & Hr & Hn). right. exists s2. split; [eapply reads_trans; eauto|auto]. }
  pose proof (drop_if_stuck_reads _ _ _ E2) as R2.
  pose proof (recover_outer_view f e s2) as V3.
  destruct (recover_outer tb f e s2) as [s'| | | |]; auto.
  - destruct V3 as (s3 & n & e' & R3 & He1 & Hn & ->).
    rewrite (proj1 (reads_frame _ _ (reads_trans _ _ _ R1 R2))) in He1, Hn |- *.
    exists e, s1, s3, n, e'. repeat split; auto. eapply reads_trans; eauto.
  - destruct V3 as (s3 & Hr & Hn). right. exists s3. split; [|exact Hn].
    eapply reads_trans; [exact R1|]. eapply reads_trans; eauto.
Qed.

Theorem recover_reports f s s1 : recover tb f s = Continue s1 ->
  exists e0, recover_errsym s = Some e0 /\ la s1 = ERROR /\
    (lasym s1 = e0 \/ exists it, In it (stack s) /\ i_sym it = lasym s1 /\ is_verr (lasym s1)).
Proof.
  intros H. pose proof (recover_view f s) as Hv. rewrite H in Hv.
  destruct Hv as (e0 & s2 & s3 & n & e' & He & _ & _ & _ & He1 & _ & ->).
  exists e0. split; [exact He|]. split; [reflexivity|]. cbn. destruct He1 as [->|He1]; auto.
Qed.

Lemma recover_first f s : shifts s <> rec_shifts s ->
  recover tb f s =
  match recover_errsym s with
  | None => Crash
  | Some e =>
    match skip_errors tb f s with
    | Continue s1 => recover_outer tb f e s1
    | o => o
    end
  end.
Proof.
  intros H. unfold recover. fold (recover_errsym s).
  destruct (recover_errsym s) as [e|]; auto.
  destruct (skip_errors tb f s) as [s1| | | |] eqn:E; auto.
  destruct (skip_errors_frame _ _ _ E) as (_ & H1 & H2).
  rewrite drop_if_stuck_idle by congruence. reflexivity.
Qed.

Theorem recover_sim_fuel_monotone f1 f2 st look : f1 <= f2 ->
  (recover_sim tb f1 st look = SimYes -> recover_sim tb f2 st look = SimYes) /\
  (recover_sim tb f1 st look = SimNo -> recover_sim tb f2 st look = SimNo) /\
  (recover_sim tb f1 st look = SimCrash -> recover_sim tb f2 st look = SimCrash).
Proof. intros Hle. repeat split; intros H; eapply recover_sim_mono; eauto; discriminate. Qed.

End Rec.

Theorem parse_fuel_monotone_recovery tb eb discard w f1 f2 : f1 <= f2 ->
  (forall s, parse tb eb true discard f1 (zs w) = Accept s -> parse tb eb true discard f2 (zs w) = Accept s) /\
  (forall s, parse tb eb true discard f1 (zs w) = Reject s -> parse tb eb true discard f2 (zs w) = Reject s) /\
  (parse tb eb true discard f1 (zs w) = Crash -> parse tb eb true discard f2 (zs w) = Crash).
Proof.
  intros Hle. repeat split; intros; eapply parse_fuel_monotone_rec; eauto; discriminate.
Qed.

Section Agree.
Variable tb : tables.
Variable eb : bool.
Variable discard : value -> bool.

Lemma pstep_clean_agree f s o : (forall s', o <> Reject s') ->
  pstep tb eb false discard f s = o -> pstep tb eb true discard f s = o.
Proof.
  intros Ho H. rewrite pstep_eq in *.
  destruct (peek (stack s) 0) as [top|]; auto.
  destruct (find (t_actions tb) (i_state top) (la s)) as [v| |]; auto.
  subst o. exfalso. eapply Ho. reflexivity.
Qed.

Lemma ploop_clean_agree f : forall s o, (forall s', o <> Reject s') ->
  ploop tb eb false discard f s = o -> ploop tb eb true discard f s = o.
Proof.
  induction f as [|f IH]; intros s o Ho H; [exact H|].
  rewrite ploop_unfold in *.
  destruct (pstep tb eb false discard (S f) s) as [s1|s1|s1| |] eqn:E;
    try (apply pstep_clean_agree in E; [rewrite E; auto|discriminate]).
  subst o. destruct (Ho s1 eq_refl).
Qed.

Lemma parse_clean_agree fuel zw o : (forall s', o <> Reject s') ->
  parse tb eb false discard fuel zw = o -> parse tb eb true discard fuel zw = o.
Proof.
  intros Ho. unfold parse. destruct (read_token tb (init_state zw)); auto.
  apply ploop_clean_agree. exact Ho.
Qed.

Theorem clean_run_agrees : forall w fuel s,
  parse tb eb false discard fuel (zs w) = Accept s -> parse tb eb true discard fuel (zs w) = Accept s.
Proof. intros w fuel s. apply parse_clean_agree. discriminate. Qed.

End Agree.

Print Assumptions recover_error_token.
Print Assumptions recover_errsym_token.
Print Assumptions recover_reports.
Print Assumptions recover_sim_fuel_monotone.
Print Assumptions parse_fuel_monotone_recovery.
Print Assumptions clean_run_agrees.
