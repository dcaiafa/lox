(* The _onBounds bookkeeping of the generated parser (emit_bounds = true):
   every stack entry carries the first and last token of the subtree it stands
   for, and every reduction of a node with a non-empty yield reports exactly
   these two tokens, right after the node's action. *)
From Coq Require Import List ZArith Lia.
From Lox Require Import Base.ListFacts Parse.Grammar Parse.Tables Parse.Validator Parse.Actions
  Parse.LRAbstract Parse.ParseRuntime Parse.RuntimeFacts Parse.Refine Parse.Complete.
Import ListNotations.

Definition tok_val (tok : token) : value := VTok (Z.of_nat (fst tok)) (snd tok).

Definition tree_bounds (t : tree) : bounds :=
  match yield t with
  | [] => {| b_begin := VNil; b_end := VNil; b_empty := true |}
  | first :: _ as u =>
    {| b_begin := tok_val first; b_end := tok_val (last u first); b_empty := false |}
  end.

Lemma flat_map_nil {A B} (f : A -> list B) (l : list A) :
  (forall x, In x l -> f x = []) -> flat_map f l = [].
Proof.
  apply flat_map_nil_iff.
Qed.

Definition brel (it : sitem) (t : tree) : Prop := i_bounds it = tree_bounds t.
Definition is_empty (it : sitem) : Prop := b_empty (i_bounds it) = true.

Lemma tree_bounds_empty t : b_empty (tree_bounds t) = true -> yield t = [].
Proof. unfold tree_bounds. destruct (yield t); [reflexivity|discriminate]. Qed.

Lemma tree_bounds_cons t x u : yield t = x :: u ->
  tree_bounds t = {| b_begin := tok_val x; b_end := tok_val (last (x :: u) x); b_empty := false |}.
Proof. intros H. unfold tree_bounds. rewrite H. destruct u; reflexivity. Qed.

Lemma tree_bounds_nonempty t : b_empty (tree_bounds t) = false -> exists x u, yield t = x :: u.
Proof. unfold tree_bounds. destruct (yield t); [discriminate|eauto]. Qed.

Lemma trim_leading_spec sl :
  exists pre, sl = pre ++ trim_leading sl /\ (forall it, In it pre -> is_empty it) /\
    match trim_leading sl with [] => True | f :: _ => b_empty (i_bounds f) = false end.
Proof.
  induction sl as [|a sl (pre & H1 & H2 & H3)]; simpl.
  - exists []. repeat split; auto. intros ? [].
  - destruct (b_empty (i_bounds a)) eqn:E.
    + exists (a :: pre). simpl. rewrite <- H1. repeat split; auto.
      intros it [<-|Hin]; [exact E|auto].
    + exists []. repeat split; auto. intros ? [].
Qed.

Lemma empty_items_yield pre chp :
  Forall2 brel pre chp -> (forall it, In it pre -> is_empty it) -> flat_map yield chp = [].
Proof.
  induction 1 as [|it t pre chp Hb HF IH]; intros He; simpl; auto.
  rewrite IH by (intros; apply He; right; assumption).
  rewrite tree_bounds_empty; auto. rewrite <- Hb. apply He. left. reflexivity.
Qed.

Lemma last_bounds M chM : Forall2 brel M chM -> forall d, M <> [] ->
  b_empty (i_bounds (last M d)) = false ->
  exists pre y v, flat_map yield chM = pre ++ y :: v /\
    b_end (i_bounds (last M d)) = tok_val (last (y :: v) y).
Proof.
  induction 1 as [|a t M1 ch1 Hb HF IH]; intros d Hne Hl; [congruence|].
  destruct M1 as [|b M2].
  - inversion HF; subst. simpl in Hl |- *. rewrite Hb in Hl |- *.
    destruct (tree_bounds_nonempty _ Hl) as (y & v & Hy).
    exists [], y, v. rewrite Hy, app_nil_r, (tree_bounds_cons _ _ _ Hy). split; reflexivity.
  - change (last (a :: b :: M2) d) with (last (b :: M2) d) in *.
    destruct (IH d) as (pre & y & v & H1 & H2); [discriminate|exact Hl|].
    exists (yield t ++ pre), y, v. simpl flat_map. rewrite H1, app_assoc. split; auto.
Qed.

Lemma ends_bounds M chM f M' : Forall2 brel M chM -> M = f :: M' ->
  b_empty (i_bounds f) = false -> b_empty (i_bounds (last M f)) = false ->
  exists x u, flat_map yield chM = x :: u /\ b_begin (i_bounds f) = tok_val x /\
    b_end (i_bounds (last M f)) = tok_val (last (x :: u) x).
Proof.
  intros HF -> Hf Hl.
  destruct (last_bounds _ _ HF f) as (pre & y & v & H1 & H2); [discriminate|exact Hl|].
  inversion HF as [|? t ? ch1 Hb HF1]; subst.
  rewrite Hb in Hf. destruct (tree_bounds_nonempty _ Hf) as (x & u1 & Hx).
  simpl flat_map in *. rewrite Hx in *. simpl app in H1 |- *.
  exists x, (u1 ++ flat_map yield ch1). split; [reflexivity|]. split.
  - rewrite Hb, (tree_bounds_cons _ _ _ Hx). reflexivity.
  - rewrite H2, H1. rewrite (last_app_ne pre (y :: v)) by discriminate.
    f_equal. apply last_indep. discriminate.
Qed.

Lemma reduce_bounds_tree sl ch p :
  Forall2 brel sl ch -> reduce_bounds sl = tree_bounds (Node p ch).
Proof.
  (* sl = pre ++ A, A = M ++ rev pre2 with M = rev B: pre and pre2 are the entries with
     empty bounds that the two trims drop, and M, if not empty, begins and ends with a
     non-empty one.  The children split alike (chp, chM, chq); those beside chM
     have empty yields, and ends_bounds reads first and last token off M's ends. *)
  intros HF. unfold reduce_bounds, tree_bounds. simpl yield.
  destruct (trim_leading_spec sl) as (pre & Hsl & Hpre & HA).
  set (A := trim_leading sl) in *. clearbody A. rewrite Hsl in HF.
  apply Forall2_app_inv_l in HF as (chp & chA & Hp & HFA & ->).
  rewrite flat_map_app, (empty_items_yield _ _ Hp Hpre). simpl app.
  unfold trim_trailing.
  destruct (trim_leading_spec (rev A)) as (pre2 & HrA & Hpre2 & HB).
  set (B := trim_leading (rev A)) in *. clearbody B.
  assert (HA' : A = rev B ++ rev pre2).
  { rewrite <- rev_app_distr, <- HrA, rev_involutive. reflexivity. }
  rewrite HA' in HFA.
  apply Forall2_app_inv_l in HFA as (chM & chq & HFM & Hq & ->).
  rewrite flat_map_app, (empty_items_yield _ _ Hq), app_nil_r
    by (intros it Hin; apply Hpre2; apply in_rev; exact Hin).
  destruct (rev B) as [|f M'] eqn:EM.
  - inversion HFM; subst. reflexivity.
  - assert (Hf : b_empty (i_bounds f) = false).
    { rewrite HA' in HA. exact HA. }
    assert (Hl : b_empty (i_bounds (last (f :: M') f)) = false).
    { destruct B as [|l B']; [discriminate|]. simpl in EM. rewrite <- EM.
      rewrite last_last. exact HB. }
    destruct (ends_bounds _ _ f M' HFM eq_refl Hf Hl) as (x & u & H1 & H2 & H3).
    rewrite H1, H2, H3. destruct u; reflexivity.
Qed.

Section Events.
Variable tb : tables.
Variable discard : value -> bool.
Notation evalt := (eval tb discard).

Fixpoint events (t : tree) : list event :=
  match t with
  | Leaf _ => []
  | Node p ch =>
    flat_map events ch ++ [ERed (Z.of_nat p) (evalt t)] ++
    (match yield t with
     | [] => []
     | first :: _ as u => [EBounds (evalt t) (tok_val first) (tok_val (last u first))]
     end)
  end.

Definition node_events (t : tree) : list event :=
  match t with
  | Leaf _ => []
  | Node p _ =>
    ERed (Z.of_nat p) (evalt t) ::
    (match yield t with
     | [] => []
     | first :: _ as u => [EBounds (evalt t) (tok_val first) (tok_val (last u first))]
     end)
  end.

Lemma events_node p ch :
  events (Node p ch) = flat_map events ch ++ node_events (Node p ch).
Proof. reflexivity. Qed.

Lemma events_reds : forall t, events t = flat_map node_events (reds t).
Proof.
  induction t as [tok|p ch IH] using tree_ind'; [reflexivity|].
  rewrite events_node. simpl reds. rewrite flat_map_app.
  replace (flat_map node_events [Node p ch]) with (node_events (Node p ch))
    by (simpl flat_map; rewrite app_nil_r; reflexivity).
  f_equal. induction IH as [|x l Hx Hl IHl]; simpl; auto.
  rewrite flat_map_app, Hx, IHl. reflexivity.
Qed.

Lemma node_events_tb p ch : let N := Node p ch in
  node_events N =
  ERed (Z.of_nat p) (evalt N) ::
  (if b_empty (tree_bounds N) then []
   else [EBounds (evalt N) (b_begin (tree_bounds N)) (b_end (tree_bounds N))]).
Proof.
  intros N. unfold node_events, tree_bounds, N.
  destruct (yield (Node p ch)) as [|x u]; [reflexivity|]. destruct u; reflexivity.
Qed.

End Events.

Section RefineB.
Variable g : grammar.
Variable tb : tables.
Variable c : cert.
Variable nterm : nat.
Variable discard : value -> bool.
Hypothesis Hval : validate g tb c nterm = true.
Variable w : list nat.

Notation evalt := (eval tb discard).
Notation astep' := (astep g (action_of tb) (goto_of tb) (length w)).
Notation R' := (R tb c nterm discard w).
Notation nev := (node_events tb discard).

Inductive stack_brel : list sitem -> list (nat * tree) -> Prop :=
| sb_bot b : stack_brel [b] []
| sb_cons it s t cs stk :
    i_bounds it = tree_bounds t -> stack_brel cs stk -> stack_brel (it :: cs) ((s, t) :: stk).

Record Rb (stk : list (nat * tree)) (inp : list token) (tr : list tree) (s : pstate) : Prop := {
  Rb_R : R' stk inp tr s;
  Rb_bounds : stack_brel (stack s) stk;
  Rb_trace : rev (trace s) = flat_map nev (rev tr);
}.

Lemma stack_brel_skipn n : forall cs stk, stack_brel cs stk -> n <= length stk ->
  stack_brel (skipn n cs) (skipn n stk).
Proof.
  induction n as [|n IH]; intros cs stk H Hn; simpl; auto.
  destruct H; simpl in *; [lia|]. apply IH; auto. lia.
Qed.

Lemma stack_brel_slice n : forall cs stk ch rest,
  stack_brel cs stk -> LRAbstract.pop n stk = Some (ch, rest) ->
  Forall2 brel (rev (firstn n cs)) ch.
Proof.
  induction n as [|n IH]; intros cs stk ch rest Hrel H; simpl in H.
  - inversion H; subst. simpl. constructor.
  - destruct stk as [|[s t] stk]; [discriminate|].
    destruct (LRAbstract.pop n stk) as [[ts r]|] eqn:E; [|discriminate].
    inversion H; subst. inversion Hrel as [|it s0 t0 cs0 stk0 Hb Hrel0]; subst.
    simpl. apply Forall2_app.
    + eapply IH; eauto.
    + constructor; [exact Hb|constructor].
Qed.

Theorem sim_next_b f stk inp tr s stk' inp' tr' :
  Rb stk inp tr s -> astep' (stk, inp, tr) = ANext (stk', inp', tr') ->
  exists s', pstep tb true false discard f s = Continue s' /\ Rb stk' inp' tr' s'.
Proof.
  intros [HR Hbr Hbt] Hstep.
  destruct (sim_next g tb c nterm true discard Hval w f _ _ _ _ _ _ _ HR Hstep) as (s' & Hps & HR' & Hsh).
  exists s'. split; [exact Hps|]. split; [exact HR'| |];
    inversion Hsh as [stk0 tok inp0 tr0 st b s0 Hb Hleaf Hstk Htr
                     |stk0 inp0 tr0 p ch rest st n Hpop]; subst.
  - rewrite Hstk. constructor; [|exact Hbr]. rewrite Hleaf in Hb.
    destruct tok as [ty i]. inversion Hb. reflexivity.
  - pose proof (reduce_bounds_tree _ _ p (stack_brel_slice _ _ _ _ _ Hbr Hpop)) as Hrb.
    apply apop_eq in Hpop as (Hn & _ & ->).
    constructor; [exact Hrb|]. apply stack_brel_skipn; auto.
  - rewrite Htr. exact Hbt.
  - pose proof (reduce_bounds_tree _ _ p (stack_brel_slice _ _ _ _ _ Hbr Hpop)) as Hrb.
    cbn [red_state]. rewrite Hrb.
    destruct (red_state_frame true s (Z.of_nat p) (evalt (Node p ch)) (tree_bounds (Node p ch))
                (Z.of_nat st) (skipn n (stack s))) as (_ & _ & _ & _ & _ & _ & _ & Ftr & _).
    rewrite Ftr, rev_app_distr, Hbt. cbn [rev]. rewrite flat_map_app. cbn [flat_map].
    rewrite app_nil_r, node_events_tb. cbv zeta. f_equal. unfold red_events.
    destruct (b_empty (tree_bounds (Node p ch))); reflexivity.
Qed.

End RefineB.

Section Run.
Variable g : grammar.
Variable tb : tables.
Variable c : cert.
Variable nterm : nat.
Variable discard : value -> bool.
Hypothesis Hval : validate g tb c nterm = true.

Theorem bounds_are_first_last : forall w X t,
  ordinary nterm w -> start_sym g = Some X -> wt g X t (tokens_of w) ->
  exists fuel s top bot,
    parse tb true false discard fuel (zs w) = Accept s /\ stack s = [top; bot] /\
    i_sym top = eval tb discard t /\ i_bounds top = tree_bounds t /\
    rev (trace s) = events tb discard t.
Proof.
  intros w X t Hord Hs Ht.
  destruct (accept_run g tb c nterm true discard Hval w Hord
              (fun x s => Rb tb c nterm discard w (fst (fst x)) (snd (fst x)) (snd x) s) X t)
    as (fuel & s & st & Hp & [[Hst _ _ _] Hbr Htr]); auto.
  - intros f [[stk inp] tr] [[stk2 inp2] tr2] s1 HR Hstep.
    exact (sim_next_b g tb c nterm discard Hval w f _ _ _ _ _ _ _ HR Hstep).
  - intros f [[stk inp] tr] s [HR _ _] Ha.
    exact (sim_acc g tb c nterm true discard Hval w f _ _ _ _ HR Ha).
  - destruct (R_init tb c nterm discard w Hord) as (s0 & Hrd & HR0).
    destruct (read_token_frame tb _ _ Hrd) as (Hst & Htr & _).
    exists s0. split; [exact Hrd|]. constructor; [exact HR0| |]; simpl.
    + rewrite Hst. constructor.
    + rewrite Htr. reflexivity.
  - simpl in Hst, Hbr, Htr.
    assert (Hshape : exists top bot, stack s = [top; bot] /\
              i_sym top = eval tb discard t /\ i_bounds top = tree_bounds t).
    { destruct (stack s) as [|top cs]; inversion Hst as [|? ? ? ? ? _ Hsym1 _ Hrel1]; subst.
      inversion Hrel1; subst. inversion Hbr as [|? ? ? ? ? Hb1 _]; subst. eauto. }
    destruct Hshape as (top & bot & Hstk & Hsym1 & Hb1).
    exists fuel, s, top, bot. repeat split; auto.
    rewrite Htr, rev_involutive. symmetry. apply events_reds.
Qed.

End Run.

Section Calls.
Variable tb : tables.
Variable discard : value -> bool.
Notation evalt := (eval tb discard).
Notation events' := (events tb discard).
Notation nev := (node_events tb discard).

Lemma node_events_empty p ch : yield (Node p ch) = [] ->
  nev (Node p ch) = [ERed (Z.of_nat p) (evalt (Node p ch))].
Proof. intros H. unfold node_events. rewrite H. reflexivity. Qed.

Lemma node_events_nonempty p ch x u : yield (Node p ch) = x :: u ->
  nev (Node p ch) =
  [ERed (Z.of_nat p) (evalt (Node p ch));
   EBounds (evalt (Node p ch)) (tok_val x) (tok_val (last (x :: u) x))].
Proof. intros H. unfold node_events. rewrite H. destruct u; reflexivity. Qed.

Lemma reds_yield_incl : forall t t', In t' (reds t) ->
  forall x, In x (yield t') -> In x (yield t).
Proof.
  induction t as [tok|p ch IH] using tree_ind'; intros t' Hin x Hx; [destruct Hin|].
  simpl reds in Hin. apply in_app_or in Hin as [Hin|[<-|[]]]; [|exact Hx].
  apply in_flat_map in Hin as (c0 & Hc & Hin).
  rewrite Forall_forall in IH. simpl yield. apply in_flat_map. exists c0. split; eauto.
Qed.

Theorem bounds_event_node t res b e : In (EBounds res b e) (events' t) ->
  exists t', In t' (reds t) /\ res = evalt t' /\
    exists x u, yield t' = x :: u /\ b = tok_val x /\ e = tok_val (last (x :: u) x).
Proof.
  rewrite events_reds. intros Hin. apply in_flat_map in Hin as (t' & Ht' & Hin).
  exists t'. split; auto. destruct t' as [tok|p ch]; [destruct Hin|].
  destruct (yield (Node p ch)) as [|x u] eqn:Ey.
  - rewrite (node_events_empty _ _ Ey) in Hin. destruct Hin as [Hin|[]]. discriminate.
  - rewrite (node_events_nonempty _ _ _ _ Ey) in Hin.
    destruct Hin as [Hin|[Hin|[]]]; [discriminate|]. inversion Hin; subst. eauto 8.
Qed.

Theorem bounds_in_yield t res b e : In (EBounds res b e) (events' t) ->
  exists x y, In x (yield t) /\ In y (yield t) /\ b = tok_val x /\ e = tok_val y.
Proof.
  intros Hin. destruct (bounds_event_node _ _ _ _ Hin) as (t' & Ht' & _ & x & u & Ey & -> & ->).
  exists x, (last (x :: u) x). repeat split; auto.
  - apply (reds_yield_incl _ _ Ht'). rewrite Ey. left. reflexivity.
  - apply (reds_yield_incl _ _ Ht'). rewrite Ey.
    destruct (exists_last (l := x :: u)) as (l' & a & E); [discriminate|].
    rewrite E, last_last. apply in_or_app. right. left. reflexivity.
Qed.

Theorem no_call_on_empty t : yield t = [] ->
  forall res b e, ~ In (EBounds res b e) (events' t).
Proof.
  intros Hy res b e Hin. destruct (bounds_in_yield _ _ _ _ Hin) as (x & _ & Hx & _).
  rewrite Hy in Hx. destruct Hx.
Qed.

Theorem no_call_on_empty_node p ch : yield (Node p ch) = [] ->
  events' (Node p ch) = flat_map events' ch ++ [ERed (Z.of_nat p) (evalt (Node p ch))].
Proof. intros H. rewrite events_node, node_events_empty; auto. Qed.

Theorem events_reductions : forall t, filter isred (events' t) = reductions tb discard t.
Proof.
  induction t as [tok|p ch IH] using tree_ind'; [reflexivity|].
  rewrite events_node, filter_app. simpl reductions. f_equal.
  - induction IH as [|x l Hx Hl IHl]; simpl; auto.
    rewrite filter_app, Hx, IHl. reflexivity.
  - unfold node_events. destruct (yield (Node p ch)); reflexivity.
Qed.

End Calls.

Print Assumptions bounds_are_first_last.
Print Assumptions bounds_event_node.
Print Assumptions bounds_in_yield.
Print Assumptions no_call_on_empty.
Print Assumptions no_call_on_empty_node.
Print Assumptions events_reductions.
