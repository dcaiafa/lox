(* The emitted parser arrays (_actions, _goto, _rules, _termCounts) and an exact
   mirror of _Find.  Go's index-out-of-range panic is the explicit FCrash. *)
From Coq Require Import List ZArith Bool.
Import ListNotations.
Local Open Scope Z_scope.

Definition nthz (l : list Z) (i : Z) : option Z :=
  if i <? 0 then None else nth_error l (Z.to_nat i).

Inductive fres := FFound (v : Z) | FNone | FCrash.

(* for ; i < end; i += 2 { if table[i] == x { return table[i+1], true } } *)
Fixpoint find_scan (fuel : nat) (t : list Z) (i e x : Z) : fres :=
  match fuel with
  | O => FNone
  | S f =>
    if i <? e then
      match nthz t i with
      | None => FCrash
      | Some k =>
        if k =? x then
          match nthz t (i + 1) with
          | None => FCrash
          | Some v => FFound v
          end
        else find_scan f t (i + 2) e x
      end
    else FNone
  end.

Definition find (t : list Z) (y x : Z) : fres :=
  match nthz t y with
  | None => FCrash
  | Some i =>
    match nthz t i with
    | None => FCrash
    | Some count => find_scan (Z.to_nat count + 1) t (i + 1) (i + 1 + count) x
    end
  end.

(* keys of a row, as _makeError collects them *)
Fixpoint row_keys_scan (fuel : nat) (t : list Z) (i e : Z) (acc : list Z) : option (list Z) :=
  match fuel with
  | O => Some (rev acc)
  | S f =>
    if i <? e then
      match nthz t i with
      | None => None
      | Some k => row_keys_scan f t (i + 2) e (k :: acc)
      end
    else Some (rev acc)
  end.

Definition row_keys (t : list Z) (y : Z) : option (list Z) :=
  match nthz t y with
  | None => None
  | Some i =>
    match nthz t i with
    | None => None
    | Some count => row_keys_scan (Z.to_nat count + 1) t (i + 1) (i + 1 + count) []
    end
  end.

Definition accept_code : Z := 2147483647.

(* codegen.go RuleGenerated per production; zero_or_more_f is KZeroOrMore too, the
   template of _act has one case for both *)
Inductive rkind :=
| KUser | KSPrime | KOneOrMore | KOneOrMoreF | KList | KZeroOrOne | KZeroOrMore.

Record tables := {
  t_actions : list Z;
  t_goto : list Z;
  t_rules : list Z;        (* production -> rule index *)
  t_term_counts : list Z;  (* production -> number of terms *)
  t_kinds : list rkind;    (* production -> how _act treats it (RuleGenerated) *)
}.
