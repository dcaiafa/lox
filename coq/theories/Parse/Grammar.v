(* Context-free grammars as lox's lr1.Grammar sees them after normalisation:
   numbered terminals and rules, a flat list of productions, production 0 is
   S' -> start.  Parse trees and derivations. *)
From Coq Require Import List Arith.
Import ListNotations.

Inductive sym := T (t : nat) | NT (n : nat).

Definition sym_eqb (a b : sym) : bool :=
  match a, b with
  | T x, T y => Nat.eqb x y
  | NT x, NT y => Nat.eqb x y
  | _, _ => false
  end.

Record prod := { lhs : nat; rhs : list sym }.
Definition grammar := list prod.

Definition eof : nat := 0.
Definition error_t : nat := 1.

(* A token is its terminal number and its index in the input. *)
Definition token := (nat * nat)%type.

Inductive tree :=
| Leaf (tok : token)
| Node (p : nat) (ch : list tree).

Section Deriv.
Variable g : grammar.

(* wt X t u : t is a parse tree with root symbol X and yield u *)
Inductive wt : sym -> tree -> list token -> Prop :=
| wt_leaf t i : wt (T t) (Leaf (t, i)) [(t, i)]
| wt_node p pr ch u :
    nth_error g p = Some pr -> wf (rhs pr) ch u -> wt (NT (lhs pr)) (Node p ch) u
with wf : list sym -> list tree -> list token -> Prop :=
| wf_nil : wf [] [] []
| wf_cons X t u Xs ts us : wt X t u -> wf Xs ts us -> wf (X :: Xs) (t :: ts) (u ++ us).

Scheme wt_ind2 := Induction for wt Sort Prop
with wf_ind2 := Induction for wf Sort Prop.
Combined Scheme wt_wf_ind from wt_ind2, wf_ind2.

(* The start symbol is the single right-hand-side symbol of production 0. *)
Definition start_sym : option sym :=
  match nth_error g 0 with
  | Some pr => match rhs pr with [X] => Some X | _ => None end
  | None => None
  end.

(* w is a sentence of the grammar.  The tokens carry their input index; that the
   indices do not matter is a lemma (RecoverySound.wt_relabel). *)
Definition sentence (w : list token) : Prop :=
  exists X t, start_sym = Some X /\ wt X t w.

End Deriv.

Fixpoint yield (t : tree) : list token :=
  match t with
  | Leaf tok => [tok]
  | Node _ ch => flat_map yield ch
  end.
