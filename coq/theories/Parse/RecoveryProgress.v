(* Recoveries make progress.  measure s = 2 * (input tokens not yet consumed)
   + (1 if a token was shifted since the last successful recovery).  No step of
   the main loop increases it and every pass through _recover that returns to the
   loop strictly decreases it: a run enters _recover at most 2*|w|+2 times.
   (Termination of the whole parse additionally needs the chains of reductions
   under one lookahead to be finite: Parse/TermProofs.v.) *)
From Coq Require Import List ZArith Lia.
From Lox Require Import Parse.Grammar Parse.Tables Parse.Validator
  Parse.ValidatorFacts Parse.ParseRuntime Parse.RuntimeFacts Parse.Refine
  Parse.Recovery Parse.RecoverySound.
Import ListNotations.

(* the real lookahead sits in la, or in qla while the synthetic ERROR occupies la *)
Definition remaining (s : pstate) : nat :=
  length (input s) +
  (if (qla s =? -1)%Z then (if (la s =? EOF)%Z then 0 else 1)
   else (if (qla s =? EOF)%Z then 0 else 1)).
Definition stuck (s : pstate) : bool := (shifts s =? rec_shifts s)%Z.
Definition measure (s : pstate) : nat := 2 * remaining s + (if stuck s then 0 else 1).

Section Pure.
Variable tb : tables.

Lemma read_rem x x' : read_token tb x = Some x' ->
  remaining x' <= remaining x /\ qla x' = (-1)%Z /\
  (qla x = (-1)%Z -> (la x =? EOF)%Z = false -> remaining x' < remaining x).
Proof.
  intros H. unfold remaining. rewrite (read_token_qla _ _ _ H). cbn [Z.eqb Pos.eqb].
  destruct (Z.eq_dec (qla x) (-1)) as [Hq|Hq].
  - destruct (read_token_fresh _ _ _ Hq H) as (-> & _ & _ & -> & _). rewrite Hq. cbn [Z.eqb Pos.eqb].
    destruct (input x) as [|ty r]; cbn [hd tl length].
    + cbn. destruct (la x =? EOF)%Z; repeat split; auto; try lia; intros _ Hc; discriminate.
    + destruct (ty =? EOF)%Z; destruct (la x =? EOF)%Z; repeat split; auto; try lia; intros _ Hc; discriminate.
  - rewrite (read_token_queued _ _ Hq) in H. inversion H. cbn [set_la input la].
    rewrite (proj2 (Z.eqb_neq _ _) Hq). repeat split; auto. intros Hc. contradiction.
Qed.

Lemma reads_rem x x' : reads tb x x' -> remaining x' <= remaining x.
Proof.
  induction 1 as [|x x1 x2 Hrd _ IH]; [auto|]. pose proof (proj1 (read_rem _ _ Hrd)). lia.
Qed.

(* The hypothesis qla x <> -1 -> la x = ERROR, here and below, holds of every
   state of a run (RecoverySound.Core, C_regs) because the model has no
   recoverLookahead. *)
Lemma skip_rem f x x' : skip_errors tb f x = Continue x' ->
  remaining x' <= remaining x /\
  ((qla x <> (-1)%Z -> la x = ERROR) -> qla x' = (-1)%Z).
Proof.
  intros H. pose proof (skip_errors_view tb f x) as Hv. rewrite H in Hv. destruct Hv as [Hr Hla].
  split; [apply reads_rem; exact Hr|]. intros HJ.
  destruct (reads_frame _ _ _ Hr) as (_ & _ & _ & [->|Hq]); auto.
  destruct (Z.eq_dec (qla x) (-1)) as [Hq|Hq]; auto. rewrite (HJ Hq) in Hla. discriminate.
Qed.

Lemma drop_rem f x x' : drop_if_stuck tb f x = Continue x' -> qla x = (-1)%Z ->
  remaining x' <= remaining x /\ qla x' = (-1)%Z /\
  (stuck x = true -> remaining x' < remaining x).
Proof.
  intros H Hq. pose proof (drop_if_stuck_view tb f x) as Hv. rewrite H in Hv. unfold stuck.
  destruct Hv as [[Hne ->]|(_ & El & x1 & Hrd & Hr)].
  - repeat split; auto. intros Hc. apply Z.eqb_eq in Hc. contradiction.
  - destruct (read_rem _ _ Hrd) as (H1 & H2 & H3). specialize (H3 Hq El).
    pose proof (reads_rem _ _ Hr).
    assert (Hq' : qla x' = (-1)%Z) by (destruct (reads_frame _ _ _ Hr) as (_ & _ & _ & [->|Hq']); auto).
    repeat split; auto; intros; lia.
Qed.

Lemma outer_rem f e x x' : recover_outer tb f e x = Continue x' -> qla x = (-1)%Z ->
  remaining x' <= remaining x /\ stuck x' = true.
Proof.
  intros H Hq. pose proof (recover_outer_view tb f e x) as Hv. rewrite H in Hv.
  destruct Hv as (x1 & n & e' & Hr & _ & _ & ->).
  pose proof (reads_rem _ _ Hr) as Hle.
  assert (Hq1 : qla x1 = (-1)%Z) by (destruct (reads_frame _ _ _ Hr) as (_ & _ & _ & [->|Hq1]); auto).
  unfold stuck. cbn [set_shifts shifts rec_shifts]. split; [|apply Z.eqb_refl].
  apply Nat.le_trans with (remaining x1); [|exact Hle].
  unfold remaining. cbn [set_shifts set_la set_stack input qla la]. rewrite Hq1. cbn [Z.eqb Pos.eqb].
  destruct (la x1 =? -1)%Z eqn:E1; [|lia]. apply Z.eqb_eq in E1. rewrite E1. cbn. lia.
Qed.

Corollary recover_stuck_consumes f s s' : recover tb f s = Continue s' ->
  (qla s <> (-1)%Z -> la s = ERROR) ->
  stuck s' = true /\ remaining s' <= remaining s /\ (stuck s = true -> remaining s' < remaining s).
Proof.
  intros H HJ. destruct (recover_continue _ _ _ _ H) as (e & s1 & s2 & _ & E1 & E2 & E3).
  destruct (skip_rem _ _ _ E1) as [H1 H2]. specialize (H2 HJ).
  destruct (skip_errors_frame _ _ _ _ E1) as (_ & H3 & H4).
  destruct (drop_rem _ _ _ E2 H2) as (H5 & H6 & H7).
  destruct (outer_rem _ _ _ _ E3 H6) as [H8 H9].
  assert (Hst : stuck s1 = stuck s) by (unfold stuck; rewrite H3, H4; reflexivity).
  rewrite Hst in H7. split; [exact H9|]. split; [lia|]. intros Hs. specialize (H7 Hs). lia.
Qed.

Theorem recover_measure f s s' : recover tb f s = Continue s' ->
  (qla s <> (-1)%Z -> la s = ERROR) -> measure s' < measure s.
Proof.
  intros H HJ. destruct (recover_stuck_consumes f s s' H HJ) as (H1 & H2 & H3).
  unfold measure. rewrite H1. destruct (stuck s); [specialize (H3 eq_refl)|]; lia.
Qed.

Lemma shift_measure s v b s' :
  (qla s <> (-1)%Z -> la s = ERROR) -> (la s =? EOF)%Z = false ->
  read_token tb (shift_state s v b) = Some s' ->
  qla s' = (-1)%Z /\ measure s' + (if (qla s =? -1)%Z then 1 else 0) <= measure s.
Proof.
  intros HJ Hle Hrd.
  destruct (read_rem _ _ Hrd) as (H1 & H2 & H3).
  destruct (read_token_frame tb _ _ Hrd) as (_ & _ & H4 & H5).
  destruct (shift_state_frame s v b) as (_ & R1 & _ & R2 & _ & R3 & _ & _ & R5 & R4).
  assert (Hrem : remaining (shift_state s v b) = remaining s) by (unfold remaining; rewrite R1, R2, R3; reflexivity).
  rewrite Hrem in H1, H3. rewrite R1, R2 in H3. rewrite R4 in H5. rewrite R5 in H4.
  split; [exact H2|]. unfold measure, stuck. rewrite H4, H5.
  destruct (qla s =? -1)%Z eqn:Eq.
  - apply Z.eqb_eq in Eq. specialize (H3 Eq Hle).
    destruct (la s =? ERROR)%Z; destruct (shifts s =? rec_shifts s)%Z;
      try destruct (shifts s + 1 =? rec_shifts s)%Z; lia.
  - apply Z.eqb_neq in Eq. rewrite (HJ Eq). cbn [Z.eqb Pos.eqb ERROR]. lia.
Qed.

End Pure.

Section Progress.
Variable g : grammar.
Variable tb : tables.
Variable c : cert.
Variable nterm : nat.
Variable eb : bool.
Variable discard : value -> bool.
Hypothesis Hval : validate g tb c nterm = true.
Variable w : list nat.
Hypothesis Hw1 : tokens1 nterm w.

Notation pstep' := (pstep tb eb true discard).
Notation ploop' := (ploop tb eb true discard).
Notation RInv' := (RInv g c nterm w).

(* the iteration of the main loop at s enters _recover *)
Definition recover_step (s : pstate) : bool :=
  match peek (stack s) 0 with
  | Some top => match find (t_actions tb) (i_state top) (la s) with FNone => true | _ => false end
  | None => false
  end.

Lemma pstep_measure_top rec f s top st :
  peek (stack s) 0 = Some top -> i_state top = Z.of_nat st -> st < nstates c ->
  (qla s <> (-1)%Z -> la s = ERROR) ->
  match pstep tb eb rec discard f s with
  | Continue s' => measure s' <= measure s /\ (recover_step s = true -> measure s' < measure s)
  | _ => True
  end.
Proof.
  intros Hpk Hst Hlt HJ. rewrite pstep_eq. unfold recover_step. rewrite Hpk.
  destruct (find (t_actions tb) (i_state top) (la s)) as [v| |] eqn:Hf; auto.
  - destruct (do_action tb eb discard s v) as [s'| | | |] eqn:Ha; auto. split; [|discriminate].
    apply do_action_continue in Ha
      as [(Hna & Hv & b & _ & Hrd)|(Hv & tc & rule & res & top' & r & ns & _ & _ & _ & _ & _ & _ & _ & ->)].
    + rewrite Hst in Hf.
      destruct (val_found Hval _ _ _ Hlt Hf) as [_ [?|_ _ Hne _ _|? ? ?]]; try lia.
      assert (Hle : (la s =? EOF)%Z = false).
      { apply Z.eqb_neq. unfold EOF. intros Hc. rewrite Hc in Hne. apply Hne. reflexivity. }
      destruct (shift_measure tb s v b s' HJ Hle Hrd) as [_ Hm]. lia.
    + match goal with |- context [red_state _ _ ?p ?res ?b ?ns ?st] =>
        destruct (red_state_frame eb s p res b ns st) as (_ & R1 & _ & R3 & _ & R5 & _ & _ & R6 & R7) end.
      unfold measure, remaining, stuck. rewrite R1, R3, R5, R6, R7. lia.
  - destruct rec; auto. destruct (recover tb f s) as [s'| | | |] eqn:Hr; auto.
    pose proof (recover_measure tb f s s' Hr HJ). split; intros; lia.
Qed.

Theorem pstep_measure f s : RInv' s ->
  match pstep' f s with
  | Continue s' => measure s' <= measure s /\ (recover_step s = true -> measure s' < measure s)
  | _ => True
  end.
Proof.
  intros (stk & wc & wr & _ & HC & _).
  destruct (core_top g tb c nterm Hval _ _ _ HC) as (top & Hpk & Htop & Hlt & _).
  apply (pstep_measure_top true f s top _ Hpk Htop Hlt).
  destruct (C_regs _ _ _ _ _ _ HC) as [(Hq & _)|(_ & Hla & _)]; auto. intros; contradiction.
Qed.

(* the number of iterations of a run of ploop that enter _recover *)
Fixpoint nrec (fuel : nat) (s : pstate) : nat :=
  match fuel with
  | O => 0
  | S f =>
    (if recover_step s then 1 else 0) +
    match pstep' (S f) s with
    | Continue s' => nrec f s'
    | _ => 0
    end
  end.

Lemma pstep_run f s s' : RInv' s -> pstep' f s = Continue s' ->
  RInv' s' /\ measure s' <= measure s /\ (recover_step s = true -> measure s' < measure s).
Proof.
  intros HI Hp. pose proof (pstep_measure f s HI) as Hm.
  pose proof (pstep_rinv g tb c nterm eb discard Hval w Hw1 true f s HI) as Hi.
  rewrite Hp in Hm, Hi. split; [exact Hi|exact Hm].
Qed.

Theorem recoveries_bounded_by_measure fuel : forall s, RInv' s -> nrec fuel s <= S (measure s).
Proof.
  induction fuel as [|f IH]; intros s HI; cbn [nrec]; [lia|].
  destruct (pstep' (S f) s) as [s'| | | |] eqn:Hp; [|destruct (recover_step s); lia..].
  destruct (pstep_run _ _ _ HI Hp) as (HI' & H1 & H2). specialize (IH s' HI').
  destruct (recover_step s); [specialize (H2 eq_refl)|]; lia.
Qed.

Inductive steps : pstate -> pstate -> Prop :=
| steps_refl s : steps s s
| steps_step f s s1 s2 : pstep' f s = Continue s1 -> steps s1 s2 -> steps s s2.

Lemma steps_measure s s' : steps s s' -> RInv' s -> measure s' <= measure s.
Proof.
  induction 1 as [s|f s s1 s2 Hp Hs IH]; intros HI; [auto|].
  destruct (pstep_run _ _ _ HI Hp) as (HI' & H1 & _). specialize (IH HI'). lia.
Qed.

Theorem recoveries_make_progress_step f s s1 s2 :
  RInv' s -> recover_step s = true -> pstep' f s = Continue s1 -> steps s1 s2 ->
  measure s2 < measure s.
Proof.
  intros HI Hr Hp Hs. destruct (pstep_run _ _ _ HI Hp) as (HI' & _ & Hm). specialize (Hm Hr).
  pose proof (steps_measure _ _ Hs HI'). lia.
Qed.

Theorem recoveries_make_progress : forall fuel s0,
  read_token tb (init_state (zs w)) = Some s0 ->
  nrec fuel s0 <= 2 * length w + 2.
Proof.
  intros fuel s0 Hrd.
  destruct (init_inv g tb c nterm Hval w Hw1) as (s0' & Hrd' & HI).
  rewrite Hrd in Hrd'. inversion Hrd'; subst s0'.
  pose proof (recoveries_bounded_by_measure fuel s0 HI) as Hb.
  destruct (read_rem tb _ _ Hrd) as (H1 & _ & _).
  assert (Hr : remaining (init_state (zs w)) = length w).
  { unfold remaining. cbn. unfold zs. rewrite map_length. lia. }
  unfold measure in Hb. destruct (stuck s0); lia.
Qed.

End Progress.

Print Assumptions recover_measure.
Print Assumptions recover_stuck_consumes.
Print Assumptions pstep_measure.
Print Assumptions recoveries_make_progress_step.
Print Assumptions recoveries_make_progress.
