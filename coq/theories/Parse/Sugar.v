(* What the generated helper rules of the grammar sugar deliver (Actions.eval):
     x?          the child's value or the zero value
     x* / x+     every element, in input order
     @list(x,s)  the elements without the separators
     x*! / x+!   the elements whose Discard() is false
   and a user action gets the value of each term in production order.
   The shapes of the helper rules are those of internal/ast/parser_term.go
   (normalize):
     x+ , x+!     p1: h -> h x      p2: h -> x
     @list(x,s)   p1: h -> h s x    p2: h -> x
     x?           p1: h -> x        p2: h -> (empty)
     x* , x*!     p1: h -> (x+ / x+! helper)   p2: h -> (empty) *)
From Coq Require Import List ZArith.
From Lox Require Import Parse.Grammar Parse.Tables Parse.ParseRuntime Parse.Actions.
Import ListNotations.

(* the trees of a left-recursive helper rule: elems are the element subtrees in
   input order *)
Inductive spine (p1 p2 : nat) : list tree -> tree -> Prop :=
| spine_one e : spine p1 p2 [e] (Node p2 [e])
| spine_more elems t' e :
    spine p1 p2 elems t' -> spine p1 p2 (elems ++ [e]) (Node p1 [t'; e]).

(* the same with separators; all = e1 s1 e2 s2 ... en, every subtree in input order *)
Inductive spine_sep (p1 p2 : nat) : list tree -> list tree -> tree -> Prop :=
| ss_one e : spine_sep p1 p2 [e] [e] (Node p2 [e])
| ss_more elems all t' sep e :
    spine_sep p1 p2 elems all t' ->
    spine_sep p1 p2 (elems ++ [e]) (all ++ [sep; e]) (Node p1 [t'; sep; e]).

Section Sugar.
Variable tb : tables.
Variable discard : value -> bool.
Notation evalt := (eval tb discard).
Notation kind := (kind_of tb).

Definition keep (v : value) : bool := negb (discard v).

Lemma eval_node p ch : evalt (Node p ch) = act_val tb discard p (map evalt ch).
Proof. reflexivity. Qed.

Theorem plus_value p1 p2 elems t :
  kind p1 = KOneOrMore -> kind p2 = KOneOrMore -> spine p1 p2 elems t ->
  evalt t = VList (map evalt elems).
Proof.
  intros K1 K2 H. induction H as [e|elems t' e H IH].
  - rewrite eval_node. unfold act_val. rewrite K2. reflexivity.
  - rewrite eval_node. unfold act_val. rewrite K1. cbn [map]. rewrite IH.
    cbn [as_list]. rewrite map_app. reflexivity.
Qed.

Theorem plus_f_value p1 p2 elems t :
  kind p1 = KOneOrMoreF -> kind p2 = KOneOrMoreF -> spine p1 p2 elems t ->
  evalt t = VList (filter keep (map evalt elems)).
Proof.
  intros K1 K2 H. induction H as [e|elems t' e H IH].
  - rewrite eval_node. unfold act_val. rewrite K2. cbn [map filter]. unfold keep.
    destruct (discard (evalt e)); reflexivity.
  - rewrite eval_node. unfold act_val. rewrite K1. cbn [map]. rewrite IH.
    cbn [as_list]. rewrite map_app, filter_app. cbn [map filter]. unfold keep.
    destruct (discard (evalt e)); cbn [negb]; [rewrite app_nil_r|]; reflexivity.
Qed.

Theorem list_value p1 p2 elems all t :
  kind p1 = KList -> kind p2 = KList -> spine_sep p1 p2 elems all t ->
  evalt t = VList (map evalt elems).
Proof.
  intros K1 K2 H. induction H as [e|elems all t' sep e H IH].
  - rewrite eval_node. unfold act_val. rewrite K2. reflexivity.
  - rewrite eval_node. unfold act_val. rewrite K1. cbn [map]. rewrite IH.
    cbn [as_list]. rewrite map_app. reflexivity.
Qed.

Theorem opt_value_some p1 e : kind p1 = KZeroOrOne -> evalt (Node p1 [e]) = evalt e.
Proof. intros K. rewrite eval_node. unfold act_val. rewrite K. reflexivity. Qed.

Theorem opt_value_none p2 : kind p2 = KZeroOrOne -> evalt (Node p2 []) = VZero.
Proof. intros K. rewrite eval_node. unfold act_val. rewrite K. reflexivity. Qed.

Theorem opt_value p1 p2 e : kind p1 = KZeroOrOne -> kind p2 = KZeroOrOne ->
  evalt (Node p1 [e]) = evalt e /\ evalt (Node p2 []) = VZero.
Proof. intros. split; [apply opt_value_some|apply opt_value_none]; assumption. Qed.

Theorem star_value_some p1 t : kind p1 = KZeroOrMore -> evalt (Node p1 [t]) = evalt t.
Proof. intros K. rewrite eval_node. unfold act_val. rewrite K. reflexivity. Qed.

Theorem star_value_none p2 : kind p2 = KZeroOrMore -> evalt (Node p2 []) = VZero.
Proof. intros K. rewrite eval_node. unfold act_val. rewrite K. reflexivity. Qed.

Lemma as_list_zero : as_list VZero = [].
Proof. reflexivity. Qed.

Theorem star_value p1 p2 t : kind p1 = KZeroOrMore -> kind p2 = KZeroOrMore ->
  evalt (Node p1 [t]) = evalt t /\ evalt (Node p2 []) = VZero /\ as_list VZero = [].
Proof. intros. repeat split; [apply star_value_some|apply star_value_none]; assumption. Qed.

(* x* over its x+ helper (productions q1 q2): all the elements / none *)
Theorem star_elems p1 q1 q2 elems t :
  kind p1 = KZeroOrMore -> kind q1 = KOneOrMore -> kind q2 = KOneOrMore ->
  spine q1 q2 elems t ->
  as_list (evalt (Node p1 [t])) = map evalt elems.
Proof.
  intros K K1 K2 H. rewrite star_value_some by exact K.
  rewrite (plus_value _ _ _ _ K1 K2 H). reflexivity.
Qed.

Theorem star_f_elems p1 q1 q2 elems t :
  kind p1 = KZeroOrMore -> kind q1 = KOneOrMoreF -> kind q2 = KOneOrMoreF ->
  spine q1 q2 elems t ->
  as_list (evalt (Node p1 [t])) = filter keep (map evalt elems).
Proof.
  intros K K1 K2 H. rewrite star_value_some by exact K.
  rewrite (plus_f_value _ _ _ _ K1 K2 H). reflexivity.
Qed.

Theorem star_empty p2 : kind p2 = KZeroOrMore -> as_list (evalt (Node p2 [])) = [].
Proof. intros K. rewrite star_value_none by exact K. reflexivity. Qed.

Theorem user_value p ch : kind p = KUser ->
  evalt (Node p ch) = VNode (Z.of_nat p) (map evalt ch).
Proof. intros K. rewrite eval_node. unfold act_val. rewrite K. reflexivity. Qed.

Corollary user_param p ch i t : kind p = KUser -> nth_error ch i = Some t ->
  exists args, evalt (Node p ch) = VNode (Z.of_nat p) args /\ nth_error args i = Some (evalt t).
Proof.
  intros K H. exists (map evalt ch). split; [apply user_value; exact K|].
  rewrite nth_error_map, H. reflexivity.
Qed.

End Sugar.

(* "in input order": the yield of the helper's tree is the concatenation of
   the yields of the elements (with the separators interleaved) *)
Theorem yield_of_spine p1 p2 elems t : spine p1 p2 elems t ->
  yield t = flat_map yield elems.
Proof.
  induction 1 as [e|elems t' e H IH]; [reflexivity|].
  cbn [yield flat_map] in *. rewrite IH, flat_map_app. reflexivity.
Qed.

Theorem yield_of_spine_sep p1 p2 elems all t : spine_sep p1 p2 elems all t ->
  yield t = flat_map yield all.
Proof.
  induction 1 as [e|elems all t' sep e H IH]; [reflexivity|].
  cbn [yield flat_map] in *. rewrite IH, flat_map_app. reflexivity.
Qed.

(* elems is all with every second subtree (the separators) removed *)
Fixpoint odd_positions {A} (l : list A) : list A :=
  match l with
  | x :: _ :: r => x :: odd_positions r
  | l => l
  end.

Lemma odd_positions_app {A} (s e : A) : forall a,
  (Nat.odd (length a) = true -> odd_positions (a ++ [s; e]) = odd_positions a ++ [e]) /\
  (forall x, Nat.odd (length (x :: a)) = true ->
     odd_positions ((x :: a) ++ [s; e]) = odd_positions (x :: a) ++ [e]).
Proof.
  induction a as [|y a [IH1 IH2]].
  - split; [discriminate|]. intros x _. reflexivity.
  - split; [apply IH2|]. intros x Hodd.
    cbn [app odd_positions]. rewrite IH1; [reflexivity|].
    cbn [length] in Hodd. rewrite Nat.odd_succ, Nat.even_succ in Hodd. exact Hodd.
Qed.

Theorem elems_of_spine_sep p1 p2 elems all t : spine_sep p1 p2 elems all t ->
  elems = odd_positions all /\ Nat.odd (length all) = true.
Proof.
  induction 1 as [e|elems all t' sep e H [IH1 IH2]]; [split; reflexivity|].
  split.
  - rewrite (proj1 (odd_positions_app sep e all) IH2). rewrite IH1. reflexivity.
  - rewrite app_length. simpl length. rewrite Nat.add_comm. simpl.
    rewrite Nat.odd_succ, Nat.even_succ. exact IH2.
Qed.

Print Assumptions plus_value.
Print Assumptions plus_f_value.
Print Assumptions list_value.
Print Assumptions opt_value.
Print Assumptions star_value.
Print Assumptions star_elems.
Print Assumptions star_f_elems.
Print Assumptions star_empty.
Print Assumptions user_value.
Print Assumptions user_param.
Print Assumptions yield_of_spine.
Print Assumptions yield_of_spine_sep.
Print Assumptions elems_of_spine_sep.
