(* One iteration `pstep` of the generated parser (clean mode: rec_enabled = false)
   simulates one step of the abstract LR machine of LRAbstract.v instantiated
   with the validated tables. *)
From Coq Require Import List ZArith Lia Bool.
From Lox Require Import Parse.Grammar Parse.Tables Parse.Validator Parse.Actions
  Parse.LRAbstract Parse.ValidatorFacts Parse.ParseRuntime Parse.RuntimeFacts.
Import ListNotations.

Definition tokens_of (w : list nat) : list token := combine w (seq 0 (length w)).
Definition zs (w : list nat) : list Z := map Z.of_nat w.
Definition ordinary (nterm : nat) (w : list nat) : Prop := Forall (fun t => 2 <= t < nterm) w.

Definition tokens_from (i : nat) (l : list nat) : list token := combine l (seq i (length l)).
Definition isred (e : event) : bool := match e with ERed _ _ => true | _ => false end.

Lemma tokens_from_cons i t l : tokens_from i (t :: l) = (t, i) :: tokens_from (S i) l.
Proof. reflexivity. Qed.

Lemma tokens_from_app a : forall k b,
  tokens_from k (a ++ b) = tokens_from k a ++ tokens_from (k + length a) b.
Proof.
  induction a as [|x a IH]; intros k b.
  - simpl. rewrite Nat.add_0_r. reflexivity.
  - simpl app. rewrite !tokens_from_cons, IH. simpl.
    replace (S (k + length a)) with (k + S (length a)) by lia. reflexivity.
Qed.

Lemma tokens_from_length k l : length (tokens_from k l) = length l.
Proof. unfold tokens_from. revert k. induction l as [|x l IH]; intros k; simpl; auto. Qed.

Lemma map_fst_tokens_from l : forall i, map fst (tokens_from i l) = l.
Proof.
  induction l as [|t l IH]; intros i; [reflexivity|].
  rewrite tokens_from_cons. simpl. rewrite IH. reflexivity.
Qed.

Lemma Forall_tokens_from (P : nat -> Prop) l : forall i,
  Forall P l -> Forall (fun tk : token => P (fst tk)) (tokens_from i l).
Proof.
  induction l as [|t l IH]; intros i H; [constructor|].
  rewrite tokens_from_cons. inversion H; subst. constructor; auto.
Qed.

Lemma zs_hd l : hd EOF (zs l) = Z.of_nat (hd 0 l).
Proof. destruct l; reflexivity. Qed.

Section Refine.
Variable g : grammar.
Variable tb : tables.
Variable c : cert.
Variable nterm : nat.
Variable eb : bool.
Variable discard : value -> bool.
Hypothesis Hval : validate g tb c nterm = true.
Variable w : list nat.

Notation nst := (nstates c).
Notation evalt := (eval tb discard).
Notation astep' := (astep g (action_of tb) (goto_of tb) (length w)).

Inductive stack_rel : list sitem -> list (nat * tree) -> Prop :=
| sr_bot b : i_state b = 0%Z -> stack_rel [b] []
| sr_cons it s t cs stk :
    i_state it = Z.of_nat s -> i_sym it = evalt t -> s < nst ->
    stack_rel cs stk -> stack_rel (it :: cs) ((s, t) :: stk).

(* the event of a reduction; traces hold Node trees only (LRAbstract.reds), the Leaf
   case is there to make ev total *)
Definition ev (t : tree) : event :=
  match t with
  | Node p _ => ERed (Z.of_nat p) (evalt t)
  | Leaf _ => ERed 0 VNil
  end.

(* l is the unread input with the lookahead at its head (index i); [] stands for the
   EOF that _readToken makes up.  pos counts the tokens taken from the input, so it
   is one past the lookahead's index, except at EOF, where both are length w. *)
Definition la_rel (inp : list token) (s : pstate) : Prop :=
  exists i l, inp = tokens_from i l /\ i + length l = length w /\
    Forall (fun t => 2 <= t < nterm) l /\
    la s = Z.of_nat (hd 0 l) /\ lasym s = VTok (la s) i /\
    input s = zs (tl l) /\ pos s = Nat.min (S i) (length w).

Record R (stk : list (nat * tree)) (inp : list token) (tr : list tree) (s : pstate) : Prop := {
  R_stack : stack_rel (stack s) stk;
  R_qla : qla s = (-1)%Z;
  R_la : la_rel inp s;
  R_trace : filter isred (trace s) = map ev tr;
}.

Lemma stack_rel_cons cs stk : stack_rel cs stk ->
  exists top r, cs = top :: r /\ i_state top = Z.of_nat (topst stk) /\ topst stk < nst.
Proof.
  intros H. destruct H as [b Hb|it s t cs stk Hs Hv Hlt Hr].
  - exists b, []. simpl. repeat split; auto. apply (val_nstates Hval).
  - exists it, cs. simpl. auto.
Qed.

Lemma stack_rel_top cs stk : stack_rel cs stk ->
  exists top, peek cs 0 = Some top /\ i_state top = Z.of_nat (topst stk) /\ topst stk < nst.
Proof.
  intros H. destruct (stack_rel_cons _ _ H) as (top & r & -> & H1 & H2). exists top. auto.
Qed.

Lemma stack_rel_len cs stk : stack_rel cs stk -> length cs = S (length stk).
Proof. induction 1; simpl; auto. Qed.

Lemma stack_rel_skipn n : forall cs stk, stack_rel cs stk -> n <= length stk ->
  stack_rel (skipn n cs) (skipn n stk).
Proof.
  induction n as [|n IH]; intros cs stk H Hn; simpl; auto.
  destruct H; simpl in *; [lia|]. apply IH; auto. lia.
Qed.

Lemma stack_rel_syms n : forall cs stk, stack_rel cs stk -> n <= length stk ->
  map i_sym (firstn n cs) = map (fun e => evalt (snd e)) (firstn n stk).
Proof.
  induction n as [|n IH]; intros cs stk H Hn; [reflexivity|].
  destruct H as [b Hb|it s t cs stk Hs Hv Hlt Hr]; simpl in Hn; [lia|].
  simpl. rewrite Hv, (IH _ _ Hr) by lia. reflexivity.
Qed.

Lemma act_eval cs stk p pr ch rest :
  nth_error g p = Some pr -> p <> 0 -> stack_rel cs stk ->
  LRAbstract.pop (length (rhs pr)) stk = Some (ch, rest) ->
  act tb discard cs (Z.of_nat p) = Some (evalt (Node p ch)).
Proof.
  intros Hp Hp0 Hrel Hpop. apply apop_eq in Hpop as (Hn & -> & _).
  rewrite (act_spec g tb c nterm discard Hval _ _ _ Hp Hp0)
    by (rewrite (stack_rel_len _ _ Hrel); lia).
  rewrite (stack_rel_syms _ _ _ Hrel Hn). simpl eval. rewrite map_rev, map_map. reflexivity.
Qed.

Lemma la_rel_frame inp s s1 :
  la s1 = la s -> lasym s1 = lasym s -> input s1 = input s -> pos s1 = pos s ->
  la_rel inp s -> la_rel inp s1.
Proof.
  intros H1 H2 H3 H4 (i & l & H). exists i, l. rewrite H1, H2, H3, H4. exact H.
Qed.

Lemma read_la_rel s i l :
  qla s = (-1)%Z -> input s = zs l -> pos s = i -> i + length l = length w ->
  Forall (fun t => 2 <= t < nterm) l ->
  exists s2, read_token tb s = Some s2 /\ qla s2 = (-1)%Z /\ la_rel (tokens_from i l) s2.
Proof.
  intros Hq Hin Hpos Hlen Hord.
  assert (Hne : hd EOF (input s) <> ERROR).
  { rewrite Hin, zs_hd. unfold ERROR. destruct Hord; simpl; lia. }
  destruct (read_token_some tb s Hq Hne) as (s2 & Hrd). exists s2. split; [exact Hrd|].
  destruct (read_token_fresh tb s s2 Hq Hrd) as (Hla & Hq2 & _ & Hin2 & Hpos2 & Hsym).
  split; [exact Hq2|]. exists i, l.
  assert (Hsym2 : lasym s2 = VTok (la s2) i).
  { rewrite <- Hla in Hne. destruct (la s2 =? ERROR)%Z eqn:E; [apply Z.eqb_eq in E|]; congruence. }
  rewrite Hin, zs_hd in Hla.
  rewrite Hin2, Hpos2, Hin, Hpos. repeat split; auto.
  - destruct l; reflexivity.
  - destruct l; cbn [zs map length] in *; lia.
Qed.

Lemma la_rel_read tok inp s : la_rel (tok :: inp) s -> qla s = (-1)%Z ->
  lasym s = evalt (Leaf tok) /\
  exists s2, read_token tb s = Some s2 /\ qla s2 = (-1)%Z /\ la_rel inp s2.
Proof.
  intros (i & [|t l] & Hinp & Hlen & Hord & Hla & Hsym & Hin & Hpos) Hq; [discriminate|].
  rewrite tokens_from_cons in Hinp. inversion Hinp; subst tok inp. cbn [hd tl length] in *.
  split; [rewrite Hsym, Hla; reflexivity|].
  inversion Hord; subst. apply read_la_rel; auto; lia.
Qed.

Lemma la_rel_eof s s1 cs :
  la_rel [] s -> qla s = (-1)%Z ->
  stack s1 = cs -> la s1 = la s -> lasym s1 = lasym s -> qla s1 = qla s ->
  input s1 = input s -> pos s1 = pos s -> trace s1 = trace s ->
  lasym s = VTok 0 (length w) /\
  exists s2, read_token tb s1 = Some s2 /\ stack s2 = cs /\ trace s2 = trace s /\
             qla s2 = (-1)%Z /\ la_rel [] s2.
(* `Proof using` decides which section hypotheses the closed lemma takes:
   la_rel_eof is stated for validated tables (Hval) like the rest of the
   section, though this script does not call on it *)
Proof using Type Hval.
  intros Hla Hq Hst Hla1 Hsym1 Hq1 Hin1 Hpos1 Htr1.
  pose proof (la_rel_frame _ _ _ Hla1 Hsym1 Hin1 Hpos1 Hla) as Hla'.
  destruct Hla as (i & [|t l] & Hinp & Hlen & Hord & Hla & Hsym & Hin & Hpos); [|discriminate].
  cbn [hd tl length] in *. replace i with (length w) in * by lia.
  split; [rewrite Hsym, Hla; reflexivity|].
  destruct (read_la_rel s1 (length w) []) as (s2 & Hrd & Hq2 & Hla2);
    [congruence|rewrite Hin1, Hin; reflexivity|rewrite Hpos1, Hpos; lia|simpl; lia|constructor|].
  destruct (read_token_frame tb _ _ Hrd) as (F1 & F2 & _).
  exists s2. repeat split; auto; congruence.
Qed.

Lemma la_rel_la inp s : la_rel inp s ->
  la s = Z.of_nat (la_of inp) /\ la_of inp < nterm /\ exists id, lasym s = VTok (la s) id.
Proof.
  intros (i & l & Hinp & Hlen & Hord & Hla & Hsym & _). subst inp.
  destruct l as [|t l]; simpl in *.
  - repeat split; eauto. unfold eof. pose proof (val_nterm g tb c nterm Hval). lia.
  - inversion Hord; subst. repeat split; eauto. lia.
Qed.

(* an inductive so that Bounds.v can invert it to extend R by the bounds *)
Inductive step_shape (s : pstate) : cfg -> cfg -> pstate -> Prop :=
| ss_shift stk tok inp tr st b s' :
    shift_bounds eb (lasym s) = Some b -> lasym s = evalt (Leaf tok) ->
    stack s' = {| i_state := Z.of_nat st; i_sym := lasym s; i_bounds := b |} :: stack s ->
    trace s' = trace s ->
    step_shape s (stk, tok :: inp, tr) ((st, Leaf tok) :: stk, inp, tr) s'
| ss_reduce stk inp tr p ch rest st n :
    LRAbstract.pop n stk = Some (ch, rest) ->
    step_shape s (stk, inp, tr) ((st, Node p ch) :: rest, inp, Node p ch :: tr)
      (red_state eb s (Z.of_nat p) (evalt (Node p ch))
         (if eb then reduce_bounds (rev (firstn n (stack s))) else no_bounds)
         (Z.of_nat st) (skipn n (stack s))).

Lemma sim_found stk inp tr s : R stk inp tr s ->
  exists top, peek (stack s) 0 = Some top /\
    find (t_actions tb) (i_state top) (la s) =
    find (t_actions tb) (Z.of_nat (topst stk)) (Z.of_nat (la_of inp)) /\ topst stk < nst.
Proof.
  intros [Hst _ Hla _]. destruct (stack_rel_top _ _ Hst) as (top & Hpk & Htop & Hlt).
  destruct (la_rel_la _ _ Hla) as (Hlaz & _). exists top. rewrite Htop, Hlaz. auto.
Qed.

Theorem sim_next f stk inp tr s stk' inp' tr' :
  R stk inp tr s -> astep' (stk, inp, tr) = ANext (stk', inp', tr') ->
  exists s', pstep tb eb false discard f s = Continue s' /\ R stk' inp' tr' s' /\
             step_shape s (stk, inp, tr) (stk', inp', tr') s'.
Proof.
  intros HR Hstep. destruct (sim_found _ _ _ _ HR) as (top & Hpk & Hfe & Hlt).
  destruct HR as [Hst Hq Hla Htr]. unfold astep, action_of in Hstep.
  destruct (find (t_actions tb) (Z.of_nat (topst stk)) (Z.of_nat (la_of inp))) as [v| |] eqn:Hf;
    try discriminate.
  rewrite (pstep_found tb eb discard false f s top v Hpk Hfe).
  destruct (val_found Hval _ _ _ Hlt Hf)
    as [_ [->|Hna Hv Hne Hs' Hpast|p pr Hv Hvp Hp0 Hp Hitem Hrule Htc]].
  - discriminate.
  - (* the validator lets no table shift EOF *)
    rewrite (decode_action_shift _ Hna Hv) in Hstep. rewrite Nat2Z.id in Hne.
    destruct inp as [|tok inp1]; [contradiction|]. inversion Hstep; subst stk' inp' tr'.
    rewrite (do_action_shift tb eb discard s v Hna Hv). unfold do_shift.
    destruct (la_rel_la _ _ Hla) as (_ & _ & id & Hsym).
    destruct (shift_bounds_some eb (lasym s)) as (b & Hb);
      [right; rewrite Hsym; simpl; eauto|]. rewrite Hb.
    destruct (shift_state_frame s v b) as (Fst & Fla & Fsym & Fq & _ & Fin & Fpos & Ftr & _).
    destruct (la_rel_read tok inp1 (shift_state s v b)) as (Hleaf & s2 & Hrd & Hq2 & Hla2);
      [eapply la_rel_frame; eauto|congruence|].
    rewrite Fsym in Hleaf. destruct (read_token_frame tb _ _ Hrd) as (Rst & Rtr & _).
    rewrite Hrd. exists s2. split; [reflexivity|].
    assert (Hstk : stack s2 =
              {| i_state := Z.of_nat (Z.to_nat v); i_sym := lasym s; i_bounds := b |} :: stack s)
      by (rewrite Rst, Fst, Z2Nat.id by exact Hv; reflexivity).
    split.
    + constructor; auto; [|congruence]. rewrite Hstk. constructor; auto.
    + econstructor; eauto; congruence.
  - rewrite (decode_action_reduce _ _ Hv Hvp), Hp in Hstep.
    destruct (LRAbstract.pop (length (rhs pr)) stk) as [[ch rest]|] eqn:Hpop; [|discriminate].
    destruct (goto_of tb (topst rest) (lhs pr)) as [s1|] eqn:Hg; inversion Hstep; subst stk' inp' tr'.
    pose proof (act_eval _ _ _ _ _ _ Hp Hp0 Hst Hpop) as Hact.
    pose proof Hpop as Hpop'. apply apop_eq in Hpop' as (Hn & _ & Hrest).
    pose proof (stack_rel_skipn _ _ _ Hst Hn) as Hrel'. rewrite <- Hrest in Hrel'.
    destruct (stack_rel_cons _ _ Hrel') as (top' & r & Hsk & Htop' & Hlt').
    destruct (val_goto_of Hval _ _ _ Hlt' Hg) as (Hs1 & _ & Hgf).
    rewrite <- Htop' in Hgf. rewrite <- Hvp in Hact.
    rewrite (do_action_reduce tb eb discard s v Hv).
    rewrite <- (Nat2Z.id (length (rhs pr))) in Hsk.
    rewrite (do_reduce_eq tb eb discard s _ _ _ _ _ _ Htc Hrule Hact (Nat2Z.is_nonneg _) Hsk), Hgf.
    rewrite Nat2Z.id in *. rewrite <- Hsk, Hvp.
    eexists. split; [reflexivity|].
    destruct (red_state_frame eb s (Z.of_nat p) (evalt (Node p ch))
                (if eb then reduce_bounds (rev (firstn (length (rhs pr)) (stack s))) else no_bounds)
                (Z.of_nat s1) (skipn (length (rhs pr)) (stack s)))
      as (Fst & Fla & Fsym & Fq & _ & Fin & Fpos & Ftr & _).
    split; [|constructor; exact Hpop].
    constructor.
    + rewrite Fst. constructor; auto.
    + congruence.
    + eapply la_rel_frame; eauto.
    + rewrite Ftr, filter_app, Htr. unfold red_events.
      destruct (eb && negb _); reflexivity.
Qed.

Lemma sim_acc f stk inp tr s :
  R stk inp tr s -> astep' (stk, inp, tr) = AAcc -> pstep tb eb false discard f s = Accept s.
Proof.
  intros HR Hstep. apply astep_acc in Hstep. unfold action_of in Hstep.
  destruct (sim_found _ _ _ _ HR) as (top & Hpk & Hfe & _). rewrite pstep_eq, Hpk, Hfe.
  destruct (find (t_actions tb) (Z.of_nat (topst stk)) (Z.of_nat (la_of inp))) as [v| |];
    try discriminate.
  inversion Hstep as [Hd]. rewrite (decode_action_acc _ Hd). reflexivity.
Qed.

Lemma sim_rej f stk inp tr s :
  R stk inp tr s -> astep' (stk, inp, tr) = ARej -> pstep tb eb false discard f s = Reject s.
Proof.
  intros HR Hstep. apply astep_rej in Hstep. unfold action_of in Hstep.
  destruct (sim_found _ _ _ _ HR) as (top & Hpk & Hfe & Hlt). rewrite pstep_eq, Hpk, Hfe.
  pose proof (val_action_find Hval _ (Z.of_nat (la_of inp)) Hlt) as Hnc.
  destruct (find (t_actions tb) (Z.of_nat (topst stk)) (Z.of_nat (la_of inp))) as [v| |];
    [discriminate|reflexivity|contradiction].
Qed.

Theorem sim_step f stk inp tr s :
  R stk inp tr s ->
  match astep' (stk, inp, tr) with
  | ANext (stk', inp', tr') =>
      exists s', pstep tb eb false discard f s = Continue s' /\ R stk' inp' tr' s'
  | AAcc => pstep tb eb false discard f s = Accept s
  | ARej => pstep tb eb false discard f s = Reject s
  | AStuck => True
  end.
Proof.
  intros HR. destruct (astep' (stk, inp, tr)) as [[[stk' inp'] tr']| | |] eqn:Hstep.
  - destruct (sim_next f _ _ _ _ _ _ _ HR Hstep) as (s' & Hps & HR' & _). eauto.
  - exact (sim_acc f _ _ _ _ HR Hstep).
  - exact (sim_rej f _ _ _ _ HR Hstep).
  - exact I.
Qed.

Lemma R_init : ordinary nterm w ->
  exists s0, read_token tb (init_state (zs w)) = Some s0 /\ R [] (tokens_of w) [] s0.
Proof.
  intros Hord.
  destruct (read_la_rel (init_state (zs w)) 0 w) as (s0 & Hrd & Hq & Hla); auto.
  destruct (read_token_frame tb _ _ Hrd) as (Hst & Htr & _).
  exists s0. split; [exact Hrd|]. constructor; auto.
  - rewrite Hst. constructor. reflexivity.
  - rewrite Htr. reflexivity.
Qed.

End Refine.
