(* What `validate g tb c nterm = true` gives: in Section Facts the clauses of
   validate as Props (the val_ lemmas).  Each opens one check of Validator.v
   (tags as there): val_nullable_stable, val_first_stable check_nullable_first
   (V1); val_sprime_fresh, val_start check_sprime (V4); val_arrays, val_rhs_lt
   check_arrays (V0); val_kinds check_kinds; val_init, val_init_d0 check_init
   (V2/V7); val_check_item to val_goto_lhs check_item (V3/V6); val_past past_ok
   and val_rows to val_goto_of check_rows (V5). *)
From Coq Require Import List ZArith Lia Bool.
From Lox Require Import Base.ListFacts Parse.Grammar Parse.Tables Parse.Validator.
Import ListNotations.


Fixpoint assoc (x : Z) (row : list (Z * Z)) : fres :=
  match row with
  | [] => FNone
  | (k, v) :: r => if (k =? x)%Z then FFound v else assoc x r
  end.

Lemma scan_entries f1 : forall f2 t i e x row,
  row_entries f1 t i e = Some row ->
  (e - i <= 2 * Z.of_nat f1)%Z -> (e - i <= 2 * Z.of_nat f2)%Z ->
  find_scan f2 t i e x = assoc x row.
Proof.
  induction f1 as [|f1 IH]; intros f2 t i e x row Hr H1 H2.
  - simpl in Hr. inversion Hr; subst. simpl.
    destruct f2; simpl; auto. destruct (i <? e)%Z eqn:E; auto. apply Z.ltb_lt in E. lia.
  - simpl in Hr. destruct (i <? e)%Z eqn:E.
    + destruct (nthz t i) as [k|] eqn:Hk; [|discriminate].
      destruct (nthz t (i + 1)) as [v|] eqn:Hv; [|discriminate].
      destruct (row_entries f1 t (i + 2) e) as [rest|] eqn:Hrest; [|discriminate].
      inversion Hr; subst. apply Z.ltb_lt in E.
      destruct f2 as [|f2]; [lia|]. simpl.
      assert (E' : (i <? e)%Z = true) by (apply Z.ltb_lt; lia). rewrite E', Hk.
      destruct (k =? x)%Z; [rewrite Hv; reflexivity|].
      apply IH; auto; lia.
    + inversion Hr; subst. simpl. destruct f2; simpl; auto. rewrite E. reflexivity.
Qed.

Lemma find_row t y row x :
  row_of t y = Some row -> find t (Z.of_nat y) x = assoc x row.
Proof.
  unfold row_of, find. intros H.
  destruct (nthz t (Z.of_nat y)) as [i|]; [|discriminate].
  destruct (nthz t i) as [count|]; [|discriminate].
  destruct ((count <? 0)%Z || negb (Z.even count)) eqn:E; [discriminate|].
  apply orb_false_iff in E as [E1 E2]. apply Z.ltb_ge in E1.
  eapply scan_entries; eauto; lia.
Qed.

Lemma assoc_cases x row :
  match assoc x row with
  | FCrash => False
  | FNone => True
  | FFound v => In (x, v) row
  end.
Proof.
  induction row as [|[k w] r IH]; simpl; [exact I|].
  destruct (k =? x)%Z eqn:E.
  - apply Z.eqb_eq in E. subst. auto.
  - destruct (assoc x r); auto.
Qed.

Lemma find_row_cases t y row x : row_of t y = Some row ->
  match find t (Z.of_nat y) x with
  | FCrash => False
  | FNone => True
  | FFound v => In (x, v) row
  end.
Proof. intros H. rewrite (find_row _ _ _ x H). apply assoc_cases. Qed.

Lemma decode_action_shift v : v <> accept_code -> (0 <= v)%Z -> decode_action v = Shift (Z.to_nat v).
Proof.
  intros Hna Hv. unfold decode_action. rewrite (proj2 (Z.eqb_neq _ _) Hna), Z.geb_leb.
  rewrite (proj2 (Z.leb_le _ _) Hv). reflexivity.
Qed.

Lemma decode_action_reduce v p : (v < 0)%Z -> (- v)%Z = Z.of_nat p -> decode_action v = Reduce p.
Proof.
  intros Hv Hp. unfold decode_action. rewrite Z.geb_leb, (proj2 (Z.leb_gt _ _) Hv), Hp, Nat2Z.id.
  replace (v =? accept_code)%Z with false; [reflexivity|].
  symmetry. apply Z.eqb_neq. unfold accept_code. lia.
Qed.

Lemma decode_action_acc v : decode_action v = Acc -> v = accept_code.
Proof.
  unfold decode_action. destruct (v =? accept_code)%Z eqn:E; [intros _; apply Z.eqb_eq; exact E|].
  destruct (v >=? 0)%Z; discriminate.
Qed.


Lemma sym_eqb_eq a b : sym_eqb a b = true <-> a = b.
Proof.
  destruct a, b; simpl; split; intros H; try discriminate; try congruence.
  - apply Nat.eqb_eq in H. congruence.
  - inversion H. apply Nat.eqb_refl.
  - apply Nat.eqb_eq in H. congruence.
  - inversion H. apply Nat.eqb_refl.
Qed.

Lemma item_eqb_eq a b : item_eqb a b = true <-> a = b.
Proof.
  destruct a as [[p d] l], b as [[p' d'] l']. unfold item_eqb.
  rewrite !andb_true_iff, !Nat.eqb_eq. split.
  - intros [[-> ->] ->]. reflexivity.
  - intros H. inversion H. auto.
Qed.

Lemma has_item_In c s it : has_item c s it = true <-> In it (nth s (c_items c) []).
Proof.
  unfold has_item. rewrite existsb_exists. split.
  - intros (x & Hin & He). apply item_eqb_eq in He. subst. exact Hin.
  - intros H. exists it. split; auto. apply item_eqb_eq. reflexivity.
Qed.

Lemma has_item_lt c s it : has_item c s it = true -> s < length (c_items c).
Proof.
  intros H. apply has_item_In in H.
  destruct (lt_dec s (length (c_items c))); auto.
  rewrite nth_overflow in H by lia. destruct H.
Qed.

Lemma mem_nat_In x l : mem_nat x l = true <-> In x l.
Proof.
  unfold mem_nat. rewrite existsb_exists. split.
  - intros (y & Hin & He). apply Nat.eqb_eq in He. subst. exact Hin.
  - intros H. exists x. split; auto. apply Nat.eqb_refl.
Qed.

Section Facts.
Variable g : grammar.
Variable tb : tables.
Variable c : cert.
Variable nterm : nat.
Hypothesis Hval : validate g tb c nterm = true.

Notation item s p d a := (has_item c s (p, d, a) = true).
Notation nst := (nstates c).

Lemma val_parts :
  0 < nst /\ 1 < nterm /\
  check_arrays g tb c nterm = true /\ check_kinds g tb = true /\ check_sprime g = true /\
  check_nullable_first g c nterm = true /\ check_init c = true /\
  check_items g tb c nterm = true /\ check_rows g tb c nterm = true.
Proof.
  pose proof Hval as H. unfold validate in H. rewrite !andb_true_iff, !Nat.ltb_lt in H. tauto.
Qed.

Lemma val_nterm : 1 < nterm.  Proof. apply val_parts. Qed.
Lemma val_nstates : 0 < nst.  Proof. apply val_parts. Qed.

Lemma val_nullable_stable p pr : nth_error g p = Some pr ->
  nullable_word c (rhs pr) = true -> nullable_nt c (lhs pr) = true.
Proof.
  intros Hp Hn. destruct val_parts as (_ & _ & _ & _ & _ & H & _).
  unfold check_nullable_first in H. rewrite forallb_forall in H.
  specialize (H pr (nth_error_In _ _ Hp)). apply andb_true_iff in H as [H _].
  rewrite Hn in H. exact H.
Qed.

Lemma val_first_stable p pr x : nth_error g p = Some pr -> x < nterm ->
  first_word c (rhs pr) x = true -> first_nt c (lhs pr) x = true.
Proof.
  intros Hp Hx Hf. destruct val_parts as (_ & _ & _ & _ & _ & H & _).
  unfold check_nullable_first in H. rewrite forallb_forall in H.
  specialize (H pr (nth_error_In _ _ Hp)). apply andb_true_iff in H as [_ H].
  rewrite forallb_forall in H. specialize (H x). rewrite Hf in H. apply H.
  apply in_seq. lia.
Qed.

Lemma val_sprime_fresh p pr pr0 : nth_error g p = Some pr -> nth_error g 0 = Some pr0 ->
  ~ In (NT (lhs pr0)) (rhs pr).
Proof.
  intros Hp H0 Hin. destruct val_parts as (_ & _ & _ & _ & H & _).
  unfold check_sprime in H. destruct g as [|p0 rest] eqn:Hg; [discriminate|].
  simpl in H0. inversion H0; subst pr0.
  destruct (rhs p0) as [|? [|? ?]]; try discriminate.
  apply andb_true_iff in H as [_ H]. rewrite forallb_forall in H.
  specialize (H pr (nth_error_In _ _ Hp)). apply negb_true_iff in H.
  assert (existsb (sym_eqb (NT (lhs p0))) (rhs pr) = true).
  { apply existsb_exists. exists (NT (lhs p0)). split; auto. apply sym_eqb_eq. reflexivity. }
  congruence.
Qed.

Lemma val_start : exists pr0 X, nth_error g 0 = Some pr0 /\ rhs pr0 = [X].
Proof.
  destruct val_parts as (_ & _ & _ & _ & H & _).
  unfold check_sprime in H. destruct g as [|p0 rest]; [discriminate|].
  destruct (rhs p0) as [|X [|? ?]] eqn:E; try discriminate.
  exists p0, X. auto.
Qed.

Lemma val_arrays p pr : nth_error g p = Some pr ->
  nthz (t_rules tb) (Z.of_nat p) = Some (Z.of_nat (lhs pr)) /\
  nthz (t_term_counts tb) (Z.of_nat p) = Some (Z.of_nat (length (rhs pr))).
Proof.
  intros Hp. destruct val_parts as (_ & _ & H & _).
  unfold check_arrays in H. apply andb_true_iff in H as [H _].
  apply andb_true_iff in H as [_ H0].
  rewrite forallb_forall in H0. specialize (H0 p).
  rewrite Hp in H0. specialize (H0 (nth_error_in_seq _ _ _ Hp)).
  destruct (nthz (t_rules tb) (Z.of_nat p)) as [r|]; [|discriminate].
  destruct (nthz (t_term_counts tb) (Z.of_nat p)) as [tc|]; [|discriminate].
  apply andb_true_iff in H0 as [E1 E2]. apply Z.eqb_eq in E1, E2. subst. auto.
Qed.

Lemma val_rhs_lt p pr t : nth_error g p = Some pr -> In (T t) (rhs pr) -> t < nterm.
Proof.
  intros Hp Hin. destruct val_parts as (_ & _ & H & _).
  unfold check_arrays in H. apply andb_true_iff in H as [_ H0].
  rewrite forallb_forall in H0. specialize (H0 pr (nth_error_In _ _ Hp)).
  apply andb_true_iff in H0 as [_ H0]. rewrite forallb_forall in H0.
  specialize (H0 _ Hin). simpl in H0. apply Nat.ltb_lt in H0. exact H0.
Qed.

Inductive kind_shape (p n : nat) : rkind -> Prop :=
| ks_user : p <> 0 -> kind_shape p n KUser
| ks_oom : p <> 0 -> n = 1 \/ n = 2 -> kind_shape p n KOneOrMore
| ks_oomf : p <> 0 -> n = 1 \/ n = 2 -> kind_shape p n KOneOrMoreF
| ks_list : p <> 0 -> n = 1 \/ n = 3 -> kind_shape p n KList
| ks_zoo : p <> 0 -> n = 0 \/ n = 1 -> kind_shape p n KZeroOrOne
| ks_zom : p <> 0 -> n = 0 \/ n = 1 -> kind_shape p n KZeroOrMore
| ks_sprime : p = 0 -> kind_shape p n KSPrime.

Lemma val_kinds p pr : nth_error g p = Some pr ->
  exists k, nth_error (t_kinds tb) p = Some k /\ kind_shape p (length (rhs pr)) k.
Proof.
  intros Hp. destruct val_parts as (_ & _ & _ & H & _).
  unfold check_kinds in H. rewrite forallb_forall in H.
  specialize (H p (nth_error_in_seq _ _ _ Hp)). rewrite Hp in H.
  destruct (nth_error (t_kinds tb) p) as [k|]; [|discriminate].
  exists k. split; auto.
  (* per kind check_kinds tests p <> 0 (the negb: first try) and, for the generated
     kinds, the admitted lengths (the orb, left in H0: second try); KSPrime tests
     p = 0 (third try) *)
  destruct k; repeat (apply andb_true_iff in H as [H ?]);
    try (apply negb_true_iff in H; apply Nat.eqb_neq in H);
    try (apply orb_true_iff in H0; rewrite !Nat.eqb_eq in H0);
    try (apply Nat.eqb_eq in H);
    constructor; auto.
Qed.

Lemma val_init : item 0 0 0 eof.
Proof.
  destruct val_parts as (_ & _ & _ & _ & _ & _ & H & _).
  unfold check_init in H. apply andb_true_iff in H as [H _]. exact H.
Qed.

Lemma val_init_d0 p d a : item 0 p d a -> d = 0.
Proof.
  intros Hi. destruct val_parts as (_ & _ & _ & _ & _ & _ & H & _).
  unfold check_init in H. apply andb_true_iff in H as [_ H].
  rewrite forallb_forall in H. apply has_item_In in Hi. specialize (H _ Hi). simpl in H.
  apply Nat.eqb_eq in H. exact H.
Qed.

Lemma val_check_item s p d a : item s p d a -> check_item g tb c nterm s (p, d, a) = true.
Proof.
  intros Hi. destruct val_parts as (_ & _ & _ & _ & _ & _ & _ & H & _).
  unfold check_items in H. rewrite forallb_forall in H.
  assert (Hs := has_item_lt _ _ _ Hi).
  specialize (H s). rewrite forallb_forall in H. apply H.
  - apply in_seq. unfold nstates. lia.
  - apply has_item_In. exact Hi.
Qed.

Lemma val_item_prod s p d a : item s p d a -> a < nterm /\ exists pr, nth_error g p = Some pr.
Proof.
  intros Hi. apply val_check_item in Hi. unfold check_item in Hi.
  destruct (nth_error g p) as [pr|]; [|discriminate].
  repeat (apply andb_true_iff in Hi as [Hi ?]). apply Nat.ltb_lt in Hi. eauto.
Qed.

Lemma val_item s p pr d a : item s p d a -> nth_error g p = Some pr ->
  match nth_error (rhs pr) d with
  | Some (T t) => exists s', action_of tb s t = Some (Shift s') /\ item s' p (S d) a
  | Some (NT B) =>
    exists s', goto_of tb s B = Some s' /\ item s' p (S d) a /\
      forall q x, In q (prods_of g B) ->
        In x ((if nullable_word c (skipn (S d) (rhs pr)) then [a] else []) ++
              first_word_list c nterm (skipn (S d) (rhs pr))) -> item s q 0 x
  | None =>
    if Nat.eqb p 0 then action_of tb s eof = Some Acc else action_of tb s a = Some (Reduce p)
  end /\
  (d = 0 -> p <> 0 -> exists s', goto_of tb s (lhs pr) = Some s').
Proof.
  intros Hi Hp. apply val_check_item in Hi. unfold check_item in Hi. rewrite Hp in Hi.
  apply andb_true_iff in Hi as [Hi Hlhs]. apply andb_true_iff in Hi as [_ Hi]. split.
  - destruct (nth_error (rhs pr) d) as [[t|B]|].
    + destruct (action_of tb s t) as [[s'| |]|]; try discriminate.
      apply andb_true_iff in Hi as [_ Hi]. eauto.
    + destruct (goto_of tb s B) as [s'|]; [|discriminate].
      apply andb_true_iff in Hi as [Hi Hcl]. apply andb_true_iff in Hi as [_ Hi].
      exists s'. split; [reflexivity|]. split; [exact Hi|]. intros q x Hq Hx.
      rewrite forallb_forall in Hcl. specialize (Hcl q Hq). rewrite forallb_forall in Hcl. auto.
    + apply andb_true_iff in Hi as [_ Hi]. destruct (Nat.eqb p 0).
      * apply andb_true_iff in Hi as [_ Hi].
        destruct (action_of tb s eof) as [[| |]|]; try discriminate. reflexivity.
      * destruct (action_of tb s a) as [[|q|]|]; try discriminate.
        apply Nat.eqb_eq in Hi. subst. reflexivity.
  - intros -> Hp0. rewrite (proj2 (Nat.eqb_neq _ _) Hp0) in Hlhs. simpl in Hlhs.
    destruct (goto_of tb s (lhs pr)) as [s'|]; [eauto|discriminate].
Qed.

Lemma val_closure s p pr d a B q qr x :
  item s p d a -> nth_error g p = Some pr -> nth_error (rhs pr) d = Some (NT B) ->
  nth_error g q = Some qr -> lhs qr = B -> x < nterm ->
  ((nullable_word c (skipn (S d) (rhs pr)) = true /\ x = a) \/
   first_word c (skipn (S d) (rhs pr)) x = true) ->
  item s q 0 x.
Proof.
  intros Hi Hp Hd Hq HB Hx Hfol. destruct (val_item _ _ _ _ _ Hi Hp) as [H _]. rewrite Hd in H.
  destruct H as (s' & _ & _ & H). apply H.
  - unfold prods_of. apply filter_In. split; [exact (nth_error_in_seq _ _ _ Hq)|].
    rewrite Hq. apply Nat.eqb_eq. exact HB.
  - apply in_or_app. destruct Hfol as [[Hn ->]|Hf].
    + left. rewrite Hn. left. reflexivity.
    + right. unfold first_word_list. apply filter_In. split; auto. apply in_seq. lia.
Qed.

Lemma val_goto_lhs s p pr a :
  item s p 0 a -> nth_error g p = Some pr -> p <> 0 ->
  exists s', goto_of tb s (lhs pr) = Some s'.
Proof. intros Hi Hp Hp0. destruct (val_item _ _ _ _ _ Hi Hp) as [_ H]. auto. Qed.

Lemma val_past s s' X p d a :
  past_ok g c s s' X = true -> item s' p d a ->
  match d with
  | 0 => p <> 0
  | S d' => exists pr a', nth_error g p = Some pr /\ nth_error (rhs pr) d' = Some X /\ item s p d' a'
  end.
Proof.
  intros Hpast Hi. unfold past_ok in Hpast. rewrite forallb_forall in Hpast.
  apply has_item_In in Hi. specialize (Hpast _ Hi). simpl in Hpast.
  destruct d as [|d'].
  - apply negb_true_iff in Hpast. apply Nat.eqb_neq in Hpast. exact Hpast.
  - destruct (nth_error g p) as [pr|] eqn:Hp; [|discriminate].
    destruct (nth_error (rhs pr) d') as [Y|] eqn:Hd; [|discriminate].
    apply andb_true_iff in Hpast as [E Hi']. apply sym_eqb_eq in E. subst.
    unfold has_item0 in Hi'. apply existsb_exists in Hi' as ([[p' d''] a'] & Hin & Hm).
    apply andb_true_iff in Hm as [Hm1 Hm2]. apply Nat.eqb_eq in Hm1, Hm2. subst p' d''.
    exists pr, a'. repeat split; auto.
    unfold has_item. apply existsb_exists. exists (p, d', a'). split; auto.
    unfold item_eqb. rewrite !Nat.eqb_refl. reflexivity.
Qed.

Lemma val_rows s : s < nst ->
  check_action_row g tb c nterm s = true /\ check_goto_row g tb c s = true.
Proof.
  intros Hs. destruct val_parts as (_ & _ & _ & _ & _ & _ & _ & _ & H).
  unfold check_rows in H. rewrite forallb_forall in H. specialize (H s).
  apply andb_true_iff. apply H. apply in_seq. lia.
Qed.

(* a found action entry, read off the raw table value as pstep tests it *)
Inductive found_just (s : nat) (x v : Z) : Prop :=
| fj_acc : v = accept_code -> Z.to_nat x = eof -> item s 0 1 eof -> found_just s x v
| fj_shift : v <> accept_code -> (0 <= v)%Z -> Z.to_nat x <> eof -> Z.to_nat v < nst ->
    past_ok g c s (Z.to_nat v) (T (Z.to_nat x)) = true -> found_just s x v
| fj_reduce p pr : (v < 0)%Z -> (- v)%Z = Z.of_nat p -> p <> 0 -> nth_error g p = Some pr ->
    item s p (length (rhs pr)) (Z.to_nat x) ->
    nthz (t_rules tb) (- v) = Some (Z.of_nat (lhs pr)) ->
    nthz (t_term_counts tb) (- v) = Some (Z.of_nat (length (rhs pr))) -> found_just s x v.

Lemma val_action_find s x : s < nst ->
  match find (t_actions tb) (Z.of_nat s) x with
  | FCrash => False
  | FNone => True
  | FFound v => (0 <= x < Z.of_nat nterm)%Z /\ found_just s x v
  end.
Proof.
  intros Hs. destruct (val_rows s Hs) as [H _]. unfold check_action_row in H.
  destruct (row_of (t_actions tb) s) as [row|] eqn:Hrow; [|discriminate].
  pose proof (find_row_cases _ _ _ x Hrow) as Hc.
  destruct (find (t_actions tb) (Z.of_nat s) x) as [v| |]; auto.
  apply andb_true_iff in H as [_ H]. rewrite forallb_forall in H.
  specialize (H _ Hc). simpl in H.
  apply andb_true_iff in H as [H H0]. apply andb_true_iff in H as [H H1].
  apply Z.leb_le in H. apply Z.ltb_lt in H1. split; [lia|].
  unfold decode_action in H0. destruct (v =? accept_code)%Z eqn:Ea; cbv iota in H0.
  - apply andb_true_iff in H0 as [H0 H2]. apply Nat.eqb_eq in H0. apply Z.eqb_eq in Ea.
    apply fj_acc; auto.
  - apply Z.eqb_neq in Ea. rewrite Z.geb_leb in H0. destruct (0 <=? v)%Z eqn:Ev; cbv iota in H0.
    + apply Z.leb_le in Ev. apply andb_true_iff in H0 as [H0 Hp]. apply andb_true_iff in H0 as [H0 H3].
      apply negb_true_iff in H0. apply Nat.eqb_neq in H0. apply Nat.ltb_lt in H3.
      apply fj_shift; auto.
    + apply Z.leb_gt in Ev. apply andb_true_iff in H0 as [H0 H2].
      apply negb_true_iff in H0. apply Nat.eqb_neq in H0.
      destruct (nth_error g (Z.to_nat (- v))) as [pr|] eqn:Hp; [|discriminate].
      destruct (val_arrays _ _ Hp) as [Hr Htc]. rewrite Z2Nat.id in Hr, Htc by lia.
      eapply fj_reduce; eauto. rewrite Z2Nat.id; lia.
Qed.

Lemma val_found s x v : s < nst -> find (t_actions tb) (Z.of_nat s) x = FFound v ->
  (0 <= x < Z.of_nat nterm)%Z /\ found_just s x v.
Proof. intros Hs Hf. pose proof (val_action_find s x Hs) as H. rewrite Hf in H. exact H. Qed.

Lemma val_goto_find s x : s < nst ->
  match find (t_goto tb) (Z.of_nat s) x with
  | FCrash => False
  | FNone => True
  | FFound v => (0 <= x)%Z /\ (0 <= v)%Z /\ Z.to_nat v < nst /\
                past_ok g c s (Z.to_nat v) (NT (Z.to_nat x)) = true
  end.
Proof.
  intros Hs. destruct (val_rows s Hs) as [_ H]. unfold check_goto_row in H.
  destruct (row_of (t_goto tb) s) as [row|] eqn:Hrow; [|discriminate].
  pose proof (find_row_cases _ _ _ x Hrow) as Hc.
  destruct (find (t_goto tb) (Z.of_nat s) x) as [v| |]; auto.
  apply andb_true_iff in H as [_ H]. rewrite forallb_forall in H.
  specialize (H _ Hc). simpl in H.
  apply andb_true_iff in H as [H Hp]. apply andb_true_iff in Hp as [Hl Hp].
  apply andb_true_iff in H as [H Hv]. apply andb_true_iff in H as [Hk _].
  apply Z.leb_le in Hk, Hv. apply Nat.ltb_lt in Hl. auto.
Qed.

Lemma val_goto_of s n s' : s < nst -> goto_of tb s n = Some s' ->
  s' < nst /\ past_ok g c s s' (NT n) = true /\
  find (t_goto tb) (Z.of_nat s) (Z.of_nat n) = FFound (Z.of_nat s').
Proof.
  intros Hs Hg. unfold goto_of in Hg. pose proof (val_goto_find s (Z.of_nat n) Hs) as H.
  destruct (find (t_goto tb) (Z.of_nat s) (Z.of_nat n)) as [v| |]; try discriminate.
  destruct (v <? 0)%Z; [discriminate|]. inversion Hg; subst.
  destruct H as (H1 & H2 & H3 & H4). rewrite Nat2Z.id in H4.
  repeat split; auto. rewrite Z2Nat.id by lia. reflexivity.
Qed.

End Facts.

Arguments val_nstates {g tb c nterm}.
Arguments val_init_d0 {g tb c nterm}.
Arguments val_item {g tb c nterm}.
Arguments val_action_find {g tb c nterm}.
Arguments val_found {g tb c nterm}.
Arguments val_goto_of {g tb c nterm}.
