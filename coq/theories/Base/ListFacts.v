(* Facts about lists that Coq 8.16's List does not have; nothing here mentions
   a definition of the development. *)
From Coq Require Import List Arith Bool Lia.
Import ListNotations.

Lemma list_nil_iff {A} (l : list A) : l = [] <-> forall x, ~ In x l.
Proof.
  destruct l as [|a l]; split; auto; try discriminate.
  intros H. exfalso. apply (H a). left. reflexivity.
Qed.

Lemma app_nil_iff {A} (l1 l2 : list A) : l1 ++ l2 = [] <-> l1 = [] /\ l2 = [].
Proof.
  split; [apply app_eq_nil|]. intros [H1 H2]; subst; reflexivity.
Qed.

Lemma flat_map_nil_iff {A B} (f : A -> list B) (l : list A) :
  flat_map f l = [] <-> (forall x, In x l -> f x = []).
Proof.
  induction l as [|a l IH]; simpl.
  - split; [intros _ x []|reflexivity].
  - rewrite app_nil_iff, IH. split.
    + intros [Ha Hl] x [<-|Hx]; auto.
    + intros H. split; [|intros x Hx]; apply H; auto.
Qed.

Lemma flat_map_not_nil {A B} (f : A -> list B) l x :
  In x l -> f x <> [] -> flat_map f l <> [].
Proof.
  intros Hin Hf E. rewrite flat_map_nil_iff in E. apply Hf. apply E. exact Hin.
Qed.

Lemma filter_nil_iff {A} (f : A -> bool) l :
  filter f l = [] <-> forall x, In x l -> f x = false.
Proof.
  rewrite list_nil_iff. split.
  - intros H x Hx. destruct (f x) eqn:E; auto. destruct (H x). apply filter_In; auto.
  - intros H x Hx. apply filter_In in Hx as [Hx Hf]. rewrite (H x Hx) in Hf. discriminate.
Qed.

Lemma flat_map_forallb {A B} (f : A -> list B) (p : A -> bool) (l : list A) :
  (forall x, f x = [] <-> p x = true) -> (flat_map f l = [] <-> forallb p l = true).
Proof.
  intros H. rewrite flat_map_nil_iff, forallb_forall. split; intros X x Hx; apply H, X, Hx.
Qed.

Lemma forallb_andb {A} (p q : A -> bool) (l : list A) :
  forallb (fun x => p x && q x) l = forallb p l && forallb q l.
Proof.
  induction l as [|a l IH]; simpl; [reflexivity|]. rewrite IH.
  destruct (p a), (q a), (forallb p l), (forallb q l); reflexivity.
Qed.

Lemma forallb_ext' {A} (p q : A -> bool) (l : list A) :
  (forall x, p x = q x) -> forallb p l = forallb q l.
Proof. intros H. induction l as [|a l IH]; simpl; [reflexivity|]. rewrite H, IH. reflexivity. Qed.

Lemma forallb2_andb {A} (p q : A -> bool) (l : list (list A)) :
  forallb (forallb (fun x => p x && q x)) l = forallb (forallb p) l && forallb (forallb q) l.
Proof.
  rewrite <- forallb_andb. apply forallb_ext'. intros x. apply forallb_andb.
Qed.

Lemma forallb_false_in {A} (p : A -> bool) (l : list A) (x : A) :
  In x l -> p x = false -> forallb p l = false.
Proof.
  intros Hin Hp. destruct (forallb p l) eqn:E; [|reflexivity].
  rewrite forallb_forall in E. rewrite (E x Hin) in Hp. discriminate.
Qed.

Lemma existsb_false_intro {A} (f : A -> bool) l :
  (forall x, In x l -> f x = false) -> existsb f l = false.
Proof.
  intros H. destruct (existsb f l) eqn:E; auto.
  apply existsb_exists in E. destruct E as [x [Hx Hf]]. rewrite (H x Hx) in Hf. discriminate.
Qed.

Lemma existsb_filter {A} (p : A -> bool) (l : list A) :
  existsb p l = (1 <=? length (filter p l)).
Proof.
  induction l as [|a l IH]; simpl; [reflexivity|]. destruct (p a); simpl; [reflexivity|exact IH].
Qed.

Lemma filter_rev' {A} (f : A -> bool) (l : list A) : filter f (rev l) = rev (filter f l).
Proof.
  induction l as [|a l IH]; simpl; auto.
  rewrite filter_app, IH. simpl. destruct (f a); simpl; auto. rewrite app_nil_r. reflexivity.
Qed.

Lemma filter_length_le {A} (f g : A -> bool) l :
  (forall j, g j = true -> f j = true) ->
  length (filter g l) <= length (filter f l).
Proof.
  intros Himp. induction l as [|b l IH]; simpl; auto.
  destruct (g b) eqn:Eg; [rewrite (Himp b Eg); simpl; lia|destruct (f b); simpl; lia].
Qed.

Lemma filter_length_lt {A} (f g : A -> bool) l k :
  (forall j, g j = true -> f j = true) -> In k l -> f k = true -> g k = false ->
  length (filter g l) < length (filter f l).
Proof.
  intros Himp. induction l as [|a l IH]; simpl; intros Hin Hf Hg; [contradiction|].
  pose proof (filter_length_le f g l Himp) as Hle. destruct Hin as [->|Hin].
  - rewrite Hf, Hg. simpl. lia.
  - specialize (IH Hin Hf Hg).
    destruct (g a) eqn:Eg; [rewrite (Himp a Eg); simpl; lia|destruct (f a); simpl; lia].
Qed.

Lemma NoDup_snoc {A} (l : list A) x : NoDup l -> ~ In x l -> NoDup (l ++ [x]).
Proof.
  intros Hn Hx. rewrite <- (rev_involutive l). change (NoDup (rev (x :: rev l))).
  apply NoDup_rev. constructor; [now rewrite <- in_rev | now apply NoDup_rev].
Qed.

Lemma NoDup_map_inj_in {A B} (f : A -> B) l :
  NoDup (map f l) -> forall x y, In x l -> In y l -> f x = f y -> x = y.
Proof.
  induction l as [|a l IH]; simpl; intros Hnd x y Hx Hy E; [contradiction|].
  inversion Hnd; subst.
  destruct Hx as [<-|Hx]; destruct Hy as [<-|Hy]; auto.
  - exfalso. apply H1. rewrite E. apply in_map. auto.
  - exfalso. apply H1. rewrite <- E. apply in_map. auto.
Qed.

Lemma NoDup_map_fst_inj {A B} (l : list (A * B)) a b b' :
  NoDup (map fst l) -> In (a, b) l -> In (a, b') l -> b = b'.
Proof.
  intros Hnd H1 H2.
  pose proof (NoDup_map_inj_in fst l Hnd _ _ H1 H2 eq_refl) as E. inversion E. reflexivity.
Qed.

Lemma nodup_map_filter {A B} (g : A -> B) (f : A -> bool) l :
  NoDup (map g l) -> NoDup (map g (filter f l)).
Proof.
  induction l as [|a l IH]; simpl; intros H; auto.
  inversion H; subst. destruct (f a); simpl; auto.
  constructor; auto. intros Hin. apply H2.
  apply in_map_iff in Hin. destruct Hin as [y [Hy Hin]].
  apply filter_In in Hin. apply in_map_iff. exists y. tauto.
Qed.

(* a list without repetition (up to f) is empty, a singleton or has two
   different elements; each shape said through membership *)
Lemma list_two_iff {A B} (f : A -> B) l : NoDup (map f l) ->
  ((exists a b l', l = a :: b :: l') <-> exists x y, In x l /\ In y l /\ f x <> f y).
Proof.
  intros Hnd. split.
  - intros [a [b [l' ->]]]. exists a, b. simpl in *. inversion Hnd; subst.
    split; auto. split; auto. intros E. apply H1. left. symmetry. exact E.
  - intros [x [y [Hx [Hy Hne]]]]. destruct l as [|a [|b l']]; [contradiction| |eauto].
    destruct Hx as [<-|[]]. destruct Hy as [<-|[]]. congruence.
Qed.

Lemma list_one_iff {A B} (f : A -> B) l : NoDup (map f l) ->
  ((exists a, l = [a]) <-> exists x, In x l /\ forall y, In y l -> y = x).
Proof.
  intros Hnd. split.
  - intros [a ->]. exists a. split; [left; reflexivity|]. intros y [<-|[]]. reflexivity.
  - intros [x [Hx Hu]]. destruct l as [|a [|b l']]; [contradiction|eauto|]. exfalso.
    rewrite (Hu a), (Hu b) in Hnd by (simpl; auto). simpl in Hnd.
    inversion Hnd; subst. apply H1. left. reflexivity.
Qed.

Lemma Forall_skipn' {A} (P : A -> Prop) n : forall l, Forall P l -> Forall P (skipn n l).
Proof.
  induction n as [|n IH]; intros l H; simpl; auto. destruct H; auto.
Qed.

Lemma Forall_fst {A B} (P : A -> Prop) (l : list (A * B)) :
  (forall a b, In (a, b) l -> P a) -> Forall (fun p => P (fst p)) l.
Proof. intros H. apply Forall_forall. intros [a b] Hin. exact (H a b Hin). Qed.

Lemma Forall2_len {A B} (R : A -> B -> Prop) l l' :
  Forall2 R l l' -> length l = length l'.
Proof. induction 1; simpl; auto. Qed.

Lemma Forall2_impl_in {A B} (R R' : A -> B -> Prop) l l' :
  Forall2 R l l' -> (forall a b, In b l' -> R a b -> R' a b) -> Forall2 R' l l'.
Proof.
  intros H. induction H; intros Himp; constructor.
  - apply Himp; simpl; auto.
  - apply IHForall2. intros a b Hb. apply Himp. simpl. auto.
Qed.

Lemma nth_error_in_seq {A} (l : list A) n x : nth_error l n = Some x -> In n (seq 0 (length l)).
Proof.
  intros H. apply in_seq. assert (Hne : nth_error l n <> None) by congruence.
  apply nth_error_Some in Hne. lia.
Qed.

Lemma exists_nth_cons {A} (P : A -> Prop) x0 l :
  (exists i x, nth_error (x0 :: l) i = Some x /\ P x) <->
  P x0 \/ exists i x, nth_error l i = Some x /\ P x.
Proof.
  split.
  - intros [[|i] (x & Hx & HP)]; cbn [nth_error] in Hx.
    + injection Hx as ->. left. exact HP.
    + right. exists i, x. auto.
  - intros [HP|(i & x & Hx & HP)]; [exists O, x0|exists (S i), x]; auto.
Qed.

Lemma firstn_S_nth {A} (l : list A) : forall d x, nth_error l d = Some x ->
  firstn (S d) l = firstn d l ++ [x].
Proof.
  induction l as [|a l IH]; intros [|d] x H; simpl in *; try discriminate.
  - inversion H. reflexivity.
  - f_equal. apply IH. exact H.
Qed.

(* List.nth_ext compares at two fixed defaults, so applying it takes an element
   of A; this one serves when the lists may be empty and A has no known
   inhabitant *)
Lemma nth_ext_any {A} : forall l l' : list A,
  length l = length l' -> (forall i d, i < length l -> nth i l d = nth i l' d) -> l = l'.
Proof.
  induction l as [|a l IH]; intros [|b l'] Hl H; try discriminate; [reflexivity|].
  f_equal.
  - apply (H 0 a). simpl. lia.
  - apply IH; [simpl in Hl; lia|]. intros i d Hi. apply (H (S i) d). simpl. lia.
Qed.

Lemma map_fst_combine {A B} (a : list A) : forall b : list B,
  length a = length b -> map fst (combine a b) = a.
Proof.
  induction a as [|x a IH]; destruct b; simpl; intros H; try discriminate; auto.
  f_equal. apply IH. lia.
Qed.

Lemma in_combine_seq {A} (l : list A) : forall s i x,
  In (i, x) (combine (seq s (length l)) l) <->
  (s <= i /\ nth_error l (i - s) = Some x).
Proof.
  induction l as [|a l IH]; intros s i x; simpl.
  - split; [tauto|]. intros [_ H]. destruct (i - s); discriminate.
  - split.
    + intros [H | H].
      * inversion H; subst. split; [lia|]. rewrite Nat.sub_diag. reflexivity.
      * apply IH in H. destruct H as [H1 H2]. split; [lia|].
        replace (i - s) with (S (i - S s)) by lia. exact H2.
    + intros [H1 H2]. destruct (Nat.eq_dec i s) as [->|Hne].
      * rewrite Nat.sub_diag in H2. simpl in H2. inversion H2. left; reflexivity.
      * right. apply IH. split; [lia|].
        replace (i - s) with (S (i - S s)) in H2 by lia. exact H2.
Qed.

Lemma app_eq_len {A} : forall a1 a2 b1 b2 : list A,
  a1 ++ b1 = a2 ++ b2 -> length a1 = length a2 -> a1 = a2 /\ b1 = b2.
Proof.
  induction a1 as [|x a1 IH]; intros [|y a2] b1 b2 H Hlen; cbn [length] in Hlen;
    try discriminate Hlen.
  - cbn [app] in H. auto.
  - cbn [app] in H. injection H as -> H. injection Hlen as Hlen.
    destruct (IH a2 b1 b2 H Hlen) as [-> ->]. auto.
Qed.

Lemma last_indep {A} (l : list A) : forall d d', l <> [] -> last l d = last l d'.
Proof.
  induction l as [|a l IH]; intros d d' H; [congruence|].
  destruct l as [|b l]; [reflexivity|].
  change (last (b :: l) d = last (b :: l) d'). apply IH. discriminate.
Qed.

Lemma last_app_ne {A} (a b : list A) d : b <> [] -> last (a ++ b) d = last b d.
Proof.
  intros Hb. induction a as [|x a IH]; [reflexivity|].
  simpl app. destruct (a ++ b) as [|y r] eqn:E.
  - apply app_eq_nil in E as [_ E]. congruence.
  - exact IH.
Qed.
