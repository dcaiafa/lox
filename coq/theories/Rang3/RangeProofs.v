(* rang3.Flatten returns the canonical list of the set its input denotes. *)
From Coq Require Import List ZArith Lia Sorting.Sorted Sorting.Permutation.
From Lox Require Import Rang3.RangeModel.
Import ListNotations.
Open Scope Z_scope.

Definition inr (c:Z) (r:range) : Prop := rB r <= c <= rE r.
Definition inrs (c:Z) (rs:list range) : Prop := exists r, In r rs /\ inr c r.
Definition wfr (r:range) : Prop := rB r <= rE r.
(* canonical: sorted by B, every range well-formed, consecutive ranges
   separated by a gap (not touching) *)
Inductive canon : list range -> Prop :=
| canon_nil : canon []
| canon_one r : wfr r -> canon [r]
| canon_cons r s l : wfr r -> rE r + 1 < rB s -> canon (s :: l) -> canon (r :: s :: l).

Lemma inrs_nil_iff c : inrs c [] <-> False.
Proof. split; [intros (r & [] & _)|tauto]. Qed.
Lemma inrs_cons c r l : inrs c (r::l) <-> inr c r \/ inrs c l.
Proof. unfold inrs; split.
  - intros (x & [->|H] & Hc); eauto.
  - intros [H|(x & H & Hc)]; [exists r|exists x]; simpl; auto.
Qed.
Lemma inrs_one c r : inrs c [r] <-> inr c r.
Proof. rewrite inrs_cons, inrs_nil_iff. tauto. Qed.
Lemma inrs_app c l1 l2 : inrs c (l1++l2) <-> inrs c l1 \/ inrs c l2.
Proof. unfold inrs; split.
  - intros (x & H & Hc). apply in_app_or in H as [H|H]; eauto.
  - intros [(x&H&Hc)|(x&H&Hc)]; exists x; split; auto using in_or_app.
Qed.
Lemma inrs_rev c l : inrs c (rev l) <-> inrs c l.
Proof. unfold inrs; split; intros (x&H&Hc); exists x; split; auto;
  [apply in_rev|apply in_rev in H]; auto. Qed.
Lemma inrs_ext c l l' : (forall z, In z l <-> In z l') -> inrs c l <-> inrs c l'.
Proof. intros H; unfold inrs; split; intros (x&Hi&Hc); exists x; split; auto; apply H; auto. Qed.
Lemma inrs_perm c l l' : Permutation l l' -> inrs c l <-> inrs c l'.
Proof. intros H. apply inrs_ext. intros z; split; intros Hz.
  - eapply Permutation_in; eauto.
  - eapply Permutation_in; [apply Permutation_sym|]; eauto.
Qed.

Lemma SS_app {A} (R:A->A->Prop) l1 l2 :
  StronglySorted R l1 -> StronglySorted R l2 ->
  (forall x y, In x l1 -> In y l2 -> R x y) -> StronglySorted R (l1++l2).
Proof.
  induction l1 as [|a l1 IH]; simpl; intros H1 H2 H; auto.
  inversion H1 as [|? ? H1' Hall]; subst. constructor.
  - apply IH; auto.
  - apply Forall_app; split; auto. apply Forall_forall. intros y Hy. apply H; auto.
Qed.

Lemma SS_impl {A} (R R':A->A->Prop) l :
  (forall x y, R x y -> R' x y) -> StronglySorted R l -> StronglySorted R' l.
Proof.
  intros HR; induction 1 as [|a l Hs IH Hall]; constructor; auto.
  eapply Forall_impl; [|exact Hall]. intros y; apply HR.
Qed.

Lemma SS_app_inv {A} (R:A->A->Prop) l1 l2 :
  StronglySorted R (l1++l2) ->
  StronglySorted R l1 /\ StronglySorted R l2 /\ (forall x y, In x l1 -> In y l2 -> R x y).
Proof.
  induction l1 as [|a l1 IH]; simpl; intros H.
  - repeat split; auto. constructor. intros ? ? [].
  - inversion H as [|? ? H' Hall]; subst. destruct (IH H') as (H1&H2&H3).
    apply Forall_app in Hall as [Ha1 Ha2].
    repeat split; auto. constructor; auto.
    intros x y [<-|Hx] Hy; auto. rewrite Forall_forall in Ha2; auto.
Qed.

Definition gap (x y : range) : Prop := rE x + 1 < rB y.
Definition before (x y : range) : Prop := rE x < rB y.
Definition sortedB (l:list range) : Prop := StronglySorted (fun a b => rB a <= rB b) l.

Lemma canon_wf_gap l : canon l -> Forall wfr l /\ StronglySorted gap l.
Proof.
  induction 1 as [|r Hr|r s l Hr Hg Hc [IHw IHs]].
  - split; constructor.
  - split; repeat constructor; auto.
  - split; [constructor; auto|]. constructor; auto.
    inversion IHs as [|? ? _ Hall]; subst. inversion IHw as [|? ? Hws _]; subst.
    constructor; [exact Hg|]. eapply Forall_impl; [|exact Hall].
    intros y Hy. unfold gap, wfr in *. lia.
Qed.

Lemma wf_gap_canon l : Forall wfr l -> StronglySorted gap l -> canon l.
Proof.
  induction l as [|r l IH]; intros Hw Hs; [constructor|].
  inversion Hw as [|? ? Hr Hw']; subst. inversion Hs as [|? ? Hs' Hall]; subst.
  destruct l as [|s l]; [constructor; auto|].
  inversion Hall; subst. constructor; auto.
Qed.

Lemma canon_iff l : canon l <-> Forall wfr l /\ StronglySorted gap l.
Proof. split; [apply canon_wf_gap|intros [? ?]; apply wf_gap_canon; auto]. Qed.

Lemma canon_wf l : canon l -> Forall wfr l.
Proof. intros H; apply canon_wf_gap in H; tauto. Qed.

Lemma canon_before l : canon l -> StronglySorted before l.
Proof. intros H; apply canon_wf_gap in H as [_ H]. eapply SS_impl; [|exact H].
  unfold gap, before; intros; lia. Qed.

Lemma canon_sortedB l : canon l -> sortedB l.
Proof. intros H; apply canon_wf_gap in H as [Hw H]. unfold sortedB.
  induction H as [|a l Hs IH Hall]; constructor.
  - inversion Hw; auto.
  - inversion Hw; subst. eapply Forall_impl; [|exact Hall]. unfold gap, wfr in *; intros; lia.
Qed.

Lemma canon_tail r l : canon (r::l) -> canon l.
Proof. inversion 1; subst; auto. constructor. Qed.

(* The accumulator only ever changes at its top, so the pass is a plain
   recursion on the current top; the rest of acc is a finished prefix. *)
Fixpoint merge_from (tip : range) (l : list range) : list range :=
  match l with
  | [] => [tip]
  | r :: l' =>
    if touches tip r then merge_from (Z.min (rB tip) (rB r), Z.max (rE tip) (rE r)) l'
    else tip :: merge_from r l'
  end.

Lemma merge_pass_from : forall l tip acc log,
  fst (merge_pass (tip :: acc) log l) = rev acc ++ merge_from tip l.
Proof.
  induction l as [|r l IH]; intros tip acc log; cbn [merge_pass merge_from].
  - reflexivity.
  - destruct (touches tip r); rewrite IH; [reflexivity|].
    cbn [rev]. rewrite <- app_assoc. reflexivity.
Qed.

Lemma touches_le t r : rB t <= rB r -> touches t r = (rB r <=? rE t + 1).
Proof. intros H. unfold touches. destruct (rB t >? rB r) eqn:E; lia. Qed.

Lemma merge_from_spec : forall l tip,
  wfr tip -> Forall wfr l -> sortedB l -> Forall (fun r => rB tip <= rB r) l ->
  (forall c, inrs c (merge_from tip l) <-> inr c tip \/ inrs c l) /\
  Forall wfr (merge_from tip l) /\ StronglySorted gap (merge_from tip l) /\
  Forall (fun p => rB tip <= rB p) (merge_from tip l).
Proof.
  induction l as [|r l IH]; intros tip Wt Hw Hs Hle; cbn [merge_from].
  - split; [|split; [|split]].
    + intros c. rewrite inrs_one, (inrs_nil_iff c). tauto.
    + repeat constructor. exact Wt.
    + repeat constructor.
    + repeat constructor. lia.
  - inversion Hs as [|? ? Hs' Hrl]; subst. inversion Hw as [|? ? Wr Hw']; subst.
    inversion Hle as [|? ? Htr Hle']; subst. unfold wfr in Wt, Wr.
    rewrite touches_le by exact Htr. destruct (rB r <=? rE tip + 1) eqn:Ht.
    + (* r is absorbed: the top keeps its B *)
      destruct (IH (Z.min (rB tip) (rB r), Z.max (rE tip) (rE r))) as (I1 & I2 & I3 & I4);
        auto.
      * unfold wfr; simpl; lia.
      * eapply Forall_impl; [|exact Hle']. simpl; intros; lia.
      * split; [|split; [exact I2|split; [exact I3|]]].
        -- intros c. rewrite I1, inrs_cons.
           assert (inr c (Z.min (rB tip) (rB r), Z.max (rE tip) (rE r)) <-> inr c tip \/ inr c r)
             by (unfold inr; simpl; lia).
           tauto.
        -- eapply Forall_impl; [|exact I4]. simpl; intros; lia.
    + (* the top is final: everything later begins at rB r or after *)
      destruct (IH r) as (I1 & I2 & I3 & I4); auto.
      split; [|split; [|split]].
      * intros c. rewrite !inrs_cons, I1. tauto.
      * constructor; assumption.
      * constructor; [exact I3|]. eapply Forall_impl; [|exact I4]. unfold gap; intros; lia.
      * constructor; [lia|]. eapply Forall_impl; [|exact I4]. simpl; intros; lia.
Qed.

Lemma merge_pass_all l : Forall wfr l -> sortedB l ->
  (forall c, inrs c (fst (merge_pass [] [] l)) <-> inrs c l) /\ canon (fst (merge_pass [] [] l)).
Proof.
  intros Hw Hs. destruct l as [|r l]; [split; [reflexivity|constructor]|].
  cbn [merge_pass]. rewrite merge_pass_from. cbn [rev app].
  inversion Hs; subst. inversion Hw; subst.
  destruct (merge_from_spec l r) as (I1 & I2 & I3 & _); auto.
  split; [|apply wf_gap_canon; assumption].
  intros c. rewrite I1, inrs_cons. tauto.
Qed.

Theorem merge_pass_denotes : forall l, Forall wfr l ->
  StronglySorted (fun a b => rB a <= rB b) l ->
  forall c, inrs c (fst (merge_pass [] [] l)) <-> inrs c l.
Proof. intros l Hw Hs. apply merge_pass_all; auto. Qed.

Theorem merge_pass_canon : forall l, Forall wfr l ->
  StronglySorted (fun a b => rB a <= rB b) l ->
  canon (fst (merge_pass [] [] l)).
Proof. intros l Hw Hs. apply merge_pass_all; auto. Qed.

Definition rle (x y : range) : Prop := rB x < rB y \/ (rB x = rB y /\ rE x <= rE y).

Lemma insert_sorted_perm x l : Permutation (x :: l) (insert_sorted x l).
Proof.
  induction l as [|y l IH]; simpl; auto.
  destruct (rlt y x); auto.
  eapply perm_trans; [apply perm_swap|]. constructor. exact IH.
Qed.

Lemma sort_ranges_perm l : Permutation l (sort_ranges l).
Proof.
  induction l as [|x l IH]; simpl; auto.
  eapply perm_trans; [|apply insert_sorted_perm]. constructor; auto.
Qed.

Lemma insert_sorted_sorted x l : StronglySorted rle l -> StronglySorted rle (insert_sorted x l).
Proof.
  induction l as [|y l IH]; simpl; intros H.
  - repeat constructor.
  - inversion H as [|? ? H' Hall]; subst.
    destruct (rlt y x) eqn:Hlt.
    + constructor; auto.
      eapply Permutation_Forall; [apply insert_sorted_perm|]. constructor; auto.
      unfold rlt, rle in *. lia.
    + constructor; auto. constructor.
      * unfold rlt, rle in *. lia.
      * eapply Forall_impl; [|exact Hall]. intros z Hz. unfold rlt, rle in *. lia.
Qed.

Lemma sort_ranges_sortedB l : sortedB (sort_ranges l).
Proof.
  apply (SS_impl rle); [unfold rle; intros; lia|].
  induction l; simpl; [constructor|apply insert_sorted_sorted; auto].
Qed.

Theorem flatten_denotes : forall l, Forall wfr l -> forall c, inrs c (flatten l) <-> inrs c l.
Proof.
  intros l Hw c. unfold flatten, flatten_log.
  rewrite merge_pass_denotes.
  - symmetry. apply inrs_perm. apply sort_ranges_perm.
  - eapply Permutation_Forall; [apply sort_ranges_perm|auto].
  - apply sort_ranges_sortedB.
Qed.

Theorem flatten_canon : forall l, Forall wfr l -> canon (flatten l).
Proof.
  intros l Hw. unfold flatten, flatten_log. apply merge_pass_canon.
  - eapply Permutation_Forall; [apply sort_ranges_perm|auto].
  - apply sort_ranges_sortedB.
Qed.

Lemma flatten_sem l : Forall wfr l ->
  Forall wfr (flatten l) /\ forall c, inrs c (flatten l) <-> inrs c l.
Proof.
  intros Hw. split; [apply canon_wf, flatten_canon, Hw|apply flatten_denotes, Hw].
Qed.

Print Assumptions merge_pass_denotes.
Print Assumptions merge_pass_canon.
Print Assumptions flatten_denotes.
Print Assumptions flatten_canon.
