(* Executable mirror of internal/lexergen/rang3 (range.go, range_heap.go).
   No proofs here: this file must keep compiling (and extracting) when a proof
   elsewhere breaks.  Code points are unbounded Z; Go's rune is int32 and every
   value the generator handles lies in 0..0x10FFFF, so no wrap-around occurs
   (eb.B+1, y.E+1 <= 0x110000). *)
From Coq Require Import List ZArith Bool.
Import ListNotations.
Open Scope Z_scope.

Definition range := (Z * Z)%type.
Definition rB (r : range) : Z := fst r.
Definition rE (r : range) : Z := snd r.

Definition max_rune : Z := 1114111. (* 0x10FFFF *)

(* Range.Contains / Intersects / Touches *)
Definition contains (r o : range) : bool := (rB r <=? rB o) && (rE r >=? rE o).

Definition intersects (r o : range) : bool :=
  let '(a, b) := if rB r >? rB o then (o, r) else (r, o) in
  rB b <=? rE a.

Definition touches (r o : range) : bool :=
  let '(a, b) := if rB r >? rB o then (o, r) else (r, o) in
  (rB b <=? rE a) || (rB b - 1 =? rE a).

(* rang3.Compare as a strict "less" and an equality test *)
Definition rlt (a b : range) : bool :=
  (rB a <? rB b) || ((rB a =? rB b) && (rE a <? rE b)).
Definition req (a b : range) : bool := (rB a =? rB b) && (rE a =? rE b).

(* slices.SortFunc(ranges, Compare): any correct sort by a total order gives
   the same list; insertion sort is the model. *)
Fixpoint insert_sorted (x : range) (l : list range) : list range :=
  match l with
  | [] => [x]
  | y :: l' => if rlt y x then y :: insert_sorted x l' else x :: l
  end.
Definition sort_ranges (l : list range) : list range :=
  fold_right insert_sorted [] l.

(* The merge pass of Flatten over the sorted slice.  acc is ranges2 (top
   first); log collects the onChange calls (oa, ob, n), most recent first, and
   is returned in call order. *)
Fixpoint merge_pass (acc : list range) (log : list (range * range * range))
         (l : list range) : list range * list (range * range * range) :=
  match l with
  | [] => (rev acc, rev log)
  | r :: l' =>
    match acc with
    | tip :: acc' =>
      if touches tip r
      then let n := (Z.min (rB tip) (rB r), Z.max (rE tip) (rE r)) in
           merge_pass (n :: acc') ((tip, r, n) :: log) l'
      else merge_pass (r :: acc) log l'
    | [] => merge_pass [r] log l'
    end
  end.

(* Flatten.  The second sort.Slice in the Go code orders by B only (for
   well-formed ranges its less(i,j) is B_i < B_j) and is handed an already
   (B,E)-sorted slice, which pdqsort leaves untouched; the theorems are stated
   for every B-sorted permutation, so they do not depend on that. *)
Definition flatten_log (l : list range) := merge_pass [] [] (sort_ranges l).
Definition flatten (l : list range) : list range := fst (flatten_log l).

(* Subtract.  r is the result stack, top first. *)
Fixpoint subtract_loop (fuel : nat) (r a b : list range) : option (list range) :=
  match fuel with
  | O => None
  | S f =>
    match b with
    | [] => Some (rev r ++ a)
    | eb :: b' =>
      let refill :=
        match a with
        | [] => Some (rev r ++ a)
        | x :: a' => subtract_loop f (x :: r) a' b
        end in
      match r with
      | [] => refill
      | ea :: r' =>
        if rE ea <? rB eb then refill
        else if rB ea >? rE eb then subtract_loop f r a b'
        else if (rB ea >=? rB eb) && (rE ea <=? rE eb) then subtract_loop f r' a b
        else if (rB ea <? rB eb) && (rE ea >? rE eb) then
          subtract_loop f ((rB eb + 1, rE ea) :: (rB ea, rB eb - 1) :: r') a b
        else if (rB ea <? rB eb) && (rE ea <=? rE eb) then
          subtract_loop f ((rB ea, rB eb - 1) :: r') a b
        else (* ea.B >= eb.B && ea.E > eb.E *)
          subtract_loop f ((rE eb + 1, rE ea) :: r') a b
      end
    end
  end.

Definition subtract_fuel (a b : list range) : nat := (4 * length a + 4 * length b + 8)%nat.

Definition subtract (a b : list range) : option (list range) :=
  match a, b with
  | [], _ => Some a
  | _, [] => Some a
  | _, _ =>
    let a' := flatten a in
    let b' := flatten b in
    subtract_loop (subtract_fuel a' b') [] a' b'
  end.

(* Normalize.  The rangeHeap (binary heap + membership set) is observed only
   through Pop = remove minimum, Peek = minimum, Push = insert unless present,
   so a strictly sorted list is an exact model. *)
Fixpoint heap_push (x : range) (h : list range) : list range :=
  match h with
  | [] => [x]
  | y :: h' =>
    if req x y then h
    else if rlt x y then x :: h
    else y :: heap_push x h'
  end.

Definition heap_of (l : list range) : list range := fold_left (fun h x => heap_push x h) l [].

Definition ncall := (range * range * range * range)%type. (* onChange(o, a, b, c) *)

Inductive nresult :=
| NDone (log : list ncall)
| NPanic (log : list ncall)     (* the "not reached" default branch *)
| NFuel.

Fixpoint normalize_loop (fuel : nat) (h : list range) (log : list ncall) : nresult :=
  match fuel with
  | O => NFuel
  | S f =>
    match h with
    | x :: ((y :: h') as rest) =>
      if req x y then normalize_loop f rest log
      else if negb (intersects x y) then normalize_loop f rest log
      else if (rB x =? rB y) && (rE x <? rE y) then
        let a := (rE x + 1, rE y) in
        normalize_loop f (heap_push a (heap_push x h')) ((y, x, a, a) :: log)
      else if (rB x <? rB y) && (rE x =? rE y) then
        let a := (rB x, rB y - 1) in
        normalize_loop f (heap_push a rest) ((x, a, y, y) :: log)
      else if (rB x <? rB y) && (rE x <? rE y) then
        let a := (rB x, rB y - 1) in
        let b := (rB y, rE x) in
        let c := (rE x + 1, rE y) in
        normalize_loop f (heap_push c (heap_push b (heap_push a h')))
                       ((y, b, c, c) :: (x, a, b, b) :: log)
      else if (rB x <? rB y) && (rE x >? rE y) then
        let a := (rB x, rB y - 1) in
        let b := (rE y + 1, rE x) in
        normalize_loop f (heap_push b (heap_push a rest)) ((x, a, y, b) :: log)
      else NPanic (rev log)
    | _ => NDone (rev log)
    end
  end.

Definition normalize_fuel (l : list range) : nat :=
  let n := (2 * length l + 2)%nat in (4 * n * n + 16)%nat.

Definition normalize (l : list range) : nresult :=
  normalize_loop (normalize_fuel l) (heap_of l) [].

(* Replaying the callback log the way mode.normalizeInputs does on the label
   set: o is replaced by a, b and (if different from b) c. *)
Fixpoint remove_range (o : range) (s : list range) : list range :=
  match s with
  | [] => []
  | x :: s' => if req o x then remove_range o s' else x :: remove_range o s'
  end.
Definition add_range (x : range) (s : list range) : list range :=
  if existsb (req x) s then s else s ++ [x].
Definition replay_call (s : list range) (c : ncall) : list range :=
  let '(o, a, b, c') := c in
  let s1 := add_range b (add_range a (remove_range o s)) in
  if req c' b then s1 else add_range c' s1.
Definition replay (s : list range) (log : list ncall) : list range :=
  fold_left replay_call log s.
