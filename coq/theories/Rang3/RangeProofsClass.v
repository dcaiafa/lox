From Coq Require Import List ZArith Lia.
From Lox Require Import Rang3.RangeModel Rang3.ClassModel Rang3.RangeProofs Rang3.RangeProofsSub.
Import ListNotations.
Open Scope Z_scope.

Fixpoint csem (e:class_expr) (c:Z) : Prop :=
  match e with
  | CClass neg items => if neg then ~ inrs c items else inrs c items
  | CSub l r => csem l c /\ ~ csem r c
  | CAdd l r => csem l c \/ csem r c
  end.

Fixpoint cwf (e:class_expr) : Prop :=
  match e with
  | CClass _ items => Forall (fun r => 0 <= rB r /\ rB r <= rE r /\ rE r <= max_rune) items
  | CSub l r => cwf l /\ cwf r
  | CAdd l r => cwf l /\ cwf r
  end.

Theorem class_denotes : forall e, cwf e ->
  exists rs, get_ranges e = Some rs /\ Forall wfr rs /\
    (forall c, 0 <= c <= max_rune -> (inrs c rs <-> csem e c)).
Proof.
  induction e as [neg items|l IHl r IHr|l IHl r IHr]; cbn [cwf get_ranges csem]; intros Hwf.
  - assert (Hw : Forall wfr items).
    { eapply Forall_impl; [|exact Hwf]. intros a (_ & Ha & _). exact Ha. }
    destruct (flatten_sem items Hw) as [Fw Fd]. destruct neg.
    + destruct (subtract_full [(0, max_rune)] (flatten items)) as (rs & H1 & H2 & H3 & _);
        [repeat constructor; unfold wfr, max_rune; simpl; lia|exact Fw|].
      exists rs. split; [exact H1|]. split; [exact H3|].
      intros c Hc. rewrite H2, inrs_one, Fd. change (inr c (0, max_rune)) in Hc. tauto.
    + exists (flatten items). split; [reflexivity|]. split; [exact Fw|]. intros c _. apply Fd.
  - destruct Hwf as [Hl Hr].
    destruct (IHl Hl) as (a & -> & Ha2 & Ha3). destruct (IHr Hr) as (b & -> & Hb2 & Hb3).
    destruct (subtract_full a b Ha2 Hb2) as (rs & H1 & H2 & H3 & _).
    exists rs. split; [exact H1|]. split; [exact H3|].
    intros c Hc. rewrite H2, (Ha3 c Hc), (Hb3 c Hc). tauto.
  - destruct Hwf as [Hl Hr].
    destruct (IHl Hl) as (a & -> & Ha2 & Ha3). destruct (IHr Hr) as (b & -> & Hb2 & Hb3).
    destruct (flatten_sem (a ++ b)) as [Fw Fd]; [apply Forall_app; auto|].
    exists (flatten (a ++ b)). split; [reflexivity|]. split; [exact Fw|].
    intros c Hc. rewrite Fd, inrs_app, (Ha3 c Hc), (Hb3 c Hc). tauto.
Qed.

Print Assumptions class_denotes.
