(* rang3.Normalize: on a sorted heap an iteration is an hstep; what is claimed
   of heap and log is proved per hstep and carried by loop_invariant. *)
From Coq Require Import List ZArith Lia Bool Sorting.Sorted.
From Lox Require Import Rang3.RangeModel Rang3.RangeProofs.
Import ListNotations.
Open Scope Z_scope.

Definition rltP (a b:range) : Prop := rB a < rB b \/ (rB a = rB b /\ rE a < rE b).
Definition sortedH (h:list range) : Prop := StronglySorted rltP h.

Lemma req_eq x y : req x y = true <-> x = y.
Proof.
  destruct x, y; unfold req, rB, rE; simpl; split;
    [intros; f_equal; lia | intros [= -> ->]; lia].
Qed.

Lemma req_neq x y : req x y = false <-> x <> y.
Proof.
  split.
  - intros H E. apply req_eq in E. congruence.
  - intros H. destruct (req x y) eqn:E; auto. apply req_eq in E. contradiction.
Qed.

Lemma range_eq_dec (x y : range) : x = y \/ x <> y.
Proof. destruct (req x y) eqn:E; [left; apply req_eq|right; apply req_neq]; auto. Qed.

Lemma rlt_iff a b : rlt a b = true <-> rltP a b.
Proof. unfold rlt, rltP. lia. Qed.

Lemma rltP_irrefl a : ~ rltP a a.
Proof. unfold rltP; lia. Qed.

Lemma rltP_neq a b : rltP a b -> a <> b.
Proof. intros H ->. eapply rltP_irrefl; eauto. Qed.

Lemma rltP_leB a b : rltP a b -> rB a <= rB b.
Proof. unfold rltP; lia. Qed.

Lemma in_cons_eq {A} (z x : A) l : In z (x :: l) <-> z = x \/ In z l.
Proof. simpl. intuition congruence. Qed.

Lemma heap_push_In z x h : In z (heap_push x h) <-> z = x \/ In z h.
Proof.
  induction h as [|y h IH]; cbn [heap_push].
  - apply in_cons_eq.
  - destruct (req x y) eqn:E.
    + apply req_eq in E; subst. rewrite in_cons_eq. tauto.
    + destruct (rlt x y); rewrite !in_cons_eq, ?IH; tauto.
Qed.

Lemma heap_push_sorted x h : sortedH h -> sortedH (heap_push x h).
Proof.
  unfold sortedH. induction h as [|y h IH]; simpl; intros H.
  - repeat constructor.
  - inversion H as [|? ? H' Hall]; subst.
    destruct (req x y) eqn:E1; [exact H|].
    destruct (rlt x y) eqn:E2.
    + apply rlt_iff in E2. constructor; auto. constructor; auto.
      eapply Forall_impl; [|exact Hall]. unfold rltP in *. intros z Hz. lia.
    + constructor; auto. apply Forall_forall. intros z Hz.
      apply heap_push_In in Hz as [->|Hz].
      * unfold req, rlt, rltP in *. lia.
      * rewrite Forall_forall in Hall; auto.
Qed.

Lemma heap_push_length x h : (length (heap_push x h) <= S (length h))%nat.
Proof.
  induction h as [|y h IH]; simpl; auto.
  destruct (req x y); simpl; [lia|]. destruct (rlt x y); simpl; lia.
Qed.

Lemma heap_push_min y t : sortedH (y :: t) -> heap_push y t = y :: t.
Proof.
  intros H. destruct t as [|z t]; [reflexivity|].
  inversion H as [|? ? _ Hall]; subst. inversion Hall as [|? ? Hyz _]; subst.
  simpl. rewrite (proj2 (req_neq y z) (rltP_neq _ _ Hyz)), (proj2 (rlt_iff y z) Hyz).
  reflexivity.
Qed.

Definition push_all (ps h : list range) : list range :=
  fold_left (fun h x => heap_push x h) ps h.

Lemma push_all_In ps : forall h z, In z (push_all ps h) <-> In z ps \/ In z h.
Proof.
  induction ps as [|a ps IH]; simpl; intros h z.
  - tauto.
  - rewrite IH, heap_push_In. intuition (subst; auto).
Qed.

Lemma push_all_sorted ps : forall h, sortedH h -> sortedH (push_all ps h).
Proof.
  induction ps as [|a ps IH]; simpl; intros h H; auto using heap_push_sorted.
Qed.

Lemma push_all_length ps : forall h, (length (push_all ps h) <= length ps + length h)%nat.
Proof.
  induction ps as [|a ps IH]; simpl; intros h; auto.
  specialize (IH (heap_push a h)). pose proof (heap_push_length a h). lia.
Qed.

Lemma push_all_Forall (P : range -> Prop) ps h :
  Forall P ps -> Forall P h -> Forall P (push_all ps h).
Proof.
  rewrite !Forall_forall. intros Hp Hh z Hz. apply push_all_In in Hz as [Hz|Hz]; auto.
Qed.

Lemma heap_of_In l z : In z (heap_of l) <-> In z l.
Proof. unfold heap_of. rewrite (push_all_In l []). simpl. tauto. Qed.

Lemma heap_of_sorted l : sortedH (heap_of l).
Proof. apply (push_all_sorted l []). constructor. Qed.

Lemma heap_of_Forall (P : range -> Prop) l : Forall P l -> Forall P (heap_of l).
Proof. intros H. apply (push_all_Forall P l []); [exact H|constructor]. Qed.

Lemma heap_of_length l : (length (heap_of l) <= length l)%nat.
Proof. pose proof (push_all_length l []). simpl in *. unfold heap_of, push_all in *. lia. Qed.

Lemma sortedH_inv x y t : sortedH (x :: y :: t) ->
  rltP x y /\ sortedH (y :: t) /\ sortedH t /\ (forall z, In z t -> rltP x z /\ rltP y z).
Proof.
  intros H. inversion H as [|? ? H1 A1]; subst. inversion H1 as [|? ? H2 A2]; subst.
  inversion A1 as [|? ? Hxy A1']; subst. rewrite Forall_forall in A1', A2.
  repeat split; auto.
Qed.

Lemma intersects_le x y : rB x <= rB y -> intersects x y = (rB y <=? rE x).
Proof.
  intros H. unfold intersects. destruct (rB x >? rB y) eqn:E; [lia|reflexivity].
Qed.

(* What Normalize does with two intersecting ranges x < y: the pieces pushed
   back (in push order) and the onChange calls (in call order). *)
Inductive overlap_split (x y : range) : list range -> list ncall -> Prop :=
| split_begin : rB x = rB y -> rE x < rE y ->
    overlap_split x y [x; (rE x + 1, rE y)] [(y, x, (rE x + 1, rE y), (rE x + 1, rE y))]
| split_end : rB x < rB y -> rB y <= rE x -> rE x = rE y ->
    overlap_split x y [y; (rB x, rB y - 1)] [(x, (rB x, rB y - 1), y, y)]
| split_overlap : rB x < rB y -> rB y <= rE x -> rE x < rE y ->
    overlap_split x y [(rB x, rB y - 1); (rB y, rE x); (rE x + 1, rE y)]
      [(x, (rB x, rB y - 1), (rB y, rE x), (rB y, rE x));
       (y, (rB y, rE x), (rE x + 1, rE y), (rE x + 1, rE y))]
| split_inside : rB x < rB y -> rE y < rE x ->
    overlap_split x y [y; (rB x, rB y - 1); (rE y + 1, rE x)]
      [(x, (rB x, rB y - 1), y, (rE y + 1, rE x))].

Inductive hstep : list range -> list range -> list ncall -> Prop :=
| hstep_drop x y t : rE x < rB y -> hstep (x :: y :: t) (y :: t) []
| hstep_split x y t ps calls :
    overlap_split x y ps calls -> hstep (x :: y :: t) (push_all ps t) calls.

(* the panic branch is none of the cases of hstep *)
Lemma loop_sorted f x y t log :
  sortedH (x :: y :: t) ->
  exists h' calls, hstep (x :: y :: t) h' calls /\
    normalize_loop (S f) (x :: y :: t) log = normalize_loop f h' (rev calls ++ log).
Proof.
  intros Hs. destruct (sortedH_inv _ _ _ Hs) as (Hxy & Hyt & _).
  cbn [normalize_loop]. rewrite (intersects_le x y) by (apply rltP_leB; exact Hxy).
  destruct (req x y) eqn:E0.
  { apply req_eq in E0. subst. exfalso; eapply rltP_irrefl; eauto. }
  unfold rltP in Hxy.
  destruct (negb (rB y <=? rE x)) eqn:E1.
  { do 2 eexists. split; [apply hstep_drop; lia|reflexivity]. }
  (* the model pushes onto y :: t where y stays; read that as pushing y onto t *)
  set (h := x :: y :: t). rewrite <- (heap_push_min y t Hyt). subst h.
  destruct ((rB x =? rB y) && (rE x <? rE y)) eqn:E2.
  { do 2 eexists. split; [apply hstep_split, split_begin; lia|reflexivity]. }
  destruct ((rB x <? rB y) && (rE x =? rE y)) eqn:E3.
  { do 2 eexists. split; [apply hstep_split, split_end; lia|reflexivity]. }
  destruct ((rB x <? rB y) && (rE x <? rE y)) eqn:E4.
  { do 2 eexists. split; [apply hstep_split, split_overlap; lia|reflexivity]. }
  destruct ((rB x <? rB y) && (rE x >? rE y)) eqn:E5.
  { do 2 eexists. split; [apply hstep_split, split_inside; lia|reflexivity]. }
  exfalso. lia.
Qed.

(* What is known of a range pushed back when x and y are split.  Well-formedness
   keeps Forall wfr of the heap; the endpoint clauses keep goodP (endpoints of
   pieces are endpoints of inputs), which normalize_fuel_enough counts with. *)
Definition piece (x y p : range) : Prop :=
  wfr p /\ (rB p = rB x \/ rB p = rB y \/ rB p = rE x + 1 \/ rB p = rE y + 1) /\
  (rE p = rE x \/ rE p = rE y \/ rE p = rB y - 1).

Lemma split_pieces x y ps calls :
  overlap_split x y ps calls -> wfr x -> wfr y -> Forall (piece x y) ps.
Proof.
  unfold wfr. destruct 1; intros Wx Wy;
    repeat apply Forall_cons; try apply Forall_nil; unfold piece, wfr; simpl; lia.
Qed.

Lemma step_Forall (P : range -> Prop) h h' calls :
  (forall x y p, P x -> P y -> piece x y p -> P p) ->
  Forall wfr h -> Forall P h -> hstep h h' calls -> Forall P h'.
Proof.
  intros HP Hw Hp Hst.
  destruct Hst as [x y t _|x y t ps calls Hsp];
    inversion Hp as [|? ? Px Hp']; subst; [exact Hp'|].
  inversion Hp' as [|? ? Py Pt]; subst. apply push_all_Forall; [|exact Pt].
  inversion Hw as [|? ? Wx Hw']; subst. apply Forall_inv in Hw'.
  eapply Forall_impl; [|exact (split_pieces _ _ _ _ Hsp Wx Hw')].
  intros p. apply HP; assumption.
Qed.

Lemma step_pres h h' calls :
  sortedH h -> Forall wfr h -> hstep h h' calls -> sortedH h' /\ Forall wfr h'.
Proof.
  intros Hs Hw Hst. split.
  - destruct Hst; destruct (sortedH_inv _ _ _ Hs) as (_ & Hyt & Ht & _);
      [exact Hyt|apply push_all_sorted; exact Ht].
  - refine (step_Forall wfr h h' calls _ Hw Hw Hst). intros x y p _ _ H. apply H.
Qed.

Definition ends_in (J : list range -> list ncall -> Prop) (r : nresult) : Prop :=
  match r with
  | NDone res => exists hf, J hf res /\ (length hf <= 1)%nat
  | NPanic _ => False
  | NFuel => True
  end.

Theorem loop_invariant (J : list range -> list ncall -> Prop) :
  (forall h log h' calls, sortedH h -> Forall wfr h ->
     J h log -> hstep h h' calls -> J h' (log ++ calls)) ->
  forall fuel h log, sortedH h -> Forall wfr h -> J h (rev log) ->
    ends_in J (normalize_loop fuel h log).
Proof.
  intros Hstep. induction fuel as [|f IH]; intros h log Hs Hw HJ; [exact Logic.I|].
  destruct h as [|x [|y t]]; [exists []; simpl; auto|exists [x]; simpl; auto|].
  destruct (loop_sorted f x y t log Hs) as (h' & calls & Hst & ->).
  destruct (step_pres _ _ _ Hs Hw Hst) as [Hs' Hw'].
  apply IH; [exact Hs'|exact Hw'|].
  rewrite rev_app_distr, rev_involutive. exact (Hstep _ _ _ _ Hs Hw HJ Hst).
Qed.

Corollary normalize_invariant (J : list range -> list ncall -> Prop) :
  (forall h log h' calls, sortedH h -> Forall wfr h ->
     J h log -> hstep h h' calls -> J h' (log ++ calls)) ->
  forall l, Forall wfr l -> J (heap_of l) [] -> ends_in J (normalize l).
Proof.
  intros Hstep l Hw HJ.
  exact (loop_invariant J Hstep (normalize_fuel l) (heap_of l) []
           (heap_of_sorted l) (heap_of_Forall wfr l Hw) HJ).
Qed.

Definition callP (c : ncall) : Prop :=
  let '(o, a, b, c) := c in
  wfr a /\ wfr b /\ wfr c /\
  (forall x, inr x o <-> inr x a \/ inr x b \/ inr x c) /\
  (forall x, ~ (inr x a /\ inr x b)) /\
  (c = b \/ (forall x, ~ (inr x a /\ inr x c)) /\ (forall x, ~ (inr x b /\ inr x c))).

Lemma callP_two o a b :
  wfr a -> wfr b -> rB a = rB o -> rB b = rE a + 1 -> rE b = rE o -> callP (o, a, b, b).
Proof.
  unfold callP, wfr, inr. intros Wa Wb H1 H2 H3.
  repeat split; try assumption; try (intros; lia). left; reflexivity.
Qed.

Lemma callP_three o a b c :
  wfr a -> wfr b -> wfr c -> rB a = rB o -> rB b = rE a + 1 -> rB c = rE b + 1 ->
  rE c = rE o -> callP (o, a, b, c).
Proof.
  unfold callP, wfr, inr. intros Wa Wb Wc H1 H2 H3 H4.
  repeat split; try assumption; try (intros; lia). right. split; intros; lia.
Qed.

Lemma split_calls x y ps calls :
  overlap_split x y ps calls -> wfr x -> wfr y -> Forall callP calls.
Proof.
  unfold wfr. destruct 1; intros Wx Wy; repeat apply Forall_cons; try apply Forall_nil;
    (apply callP_two || apply callP_three); unfold wfr; simpl; lia.
Qed.

Lemma calls_step h (log : list ncall) h' calls :
  sortedH h -> Forall wfr h -> Forall callP log -> hstep h h' calls -> Forall callP (log ++ calls).
Proof.
  intros _ Hw Hl Hst. apply Forall_app. split; [exact Hl|].
  destruct Hst as [|x y t ps calls Hsp]; [constructor|].
  exact (split_calls _ _ _ _ Hsp (Forall_inv Hw) (Forall_inv (Forall_inv_tail Hw))).
Qed.

Lemma normalize_calls l : Forall wfr l -> ends_in (fun _ => Forall callP) (normalize l).
Proof.
  intros Hw. exact (normalize_invariant (fun _ => Forall callP) calls_step l Hw (Forall_nil _)).
Qed.

Theorem normalize_calls_partition : forall l log, Forall wfr l -> normalize l = NDone log ->
  Forall (fun '(o,a,b,c) =>
    wfr a /\ wfr b /\ wfr c /\
    (forall x, inr x o <-> inr x a \/ inr x b \/ inr x c) /\
    (forall x, ~ (inr x a /\ inr x b)) /\
    (c = b \/ (forall x, ~ (inr x a /\ inr x c)) /\ (forall x, ~ (inr x b /\ inr x c)))) log.
Proof.
  intros l log Hw Hn.
  pose proof (normalize_calls l Hw) as H.
  rewrite Hn in H. destruct H as (hf & Hl & _). exact Hl.
Qed.

Theorem normalize_no_panic : forall l, Forall wfr l -> forall log, normalize l <> NPanic log.
Proof.
  intros l Hw log Hn.
  pose proof (normalize_calls l Hw) as H.
  rewrite Hn in H. exact H.
Qed.

Print Assumptions normalize_calls_partition.
Print Assumptions normalize_no_panic.

(* Termination: any additive weight on ranges strictly decreases. *)

Section Measure.
  Variable w : range -> Z.
  Variable good : range -> Prop.
  Hypothesis good_wfr : forall r, good r -> wfr r.
  Hypothesis w_pos : forall r, good r -> 1 <= w r.
  Hypothesis w_split : forall b m e, b <= m -> m < e -> w (b, e) = w (b, m) + w (m + 1, e).
  Hypothesis good_piece : forall x y p, good x -> good y -> piece x y p -> good p.

  Fixpoint wsum (h : list range) : Z :=
    match h with [] => 0 | r :: t => w r + wsum t end.

  Lemma wsum_nonneg h : Forall good h -> 0 <= wsum h.
  Proof.
    induction 1 as [|r t Hr Ht IH]; simpl; [lia|]. pose proof (w_pos r Hr). lia.
  Qed.

  Lemma wsum_push x h : good x -> Forall good h -> wsum (heap_push x h) <= wsum h + w x.
  Proof.
    intros Hx. pose proof (w_pos x Hx) as Px.
    induction 1 as [|r t Hr Ht IH]; simpl; [lia|].
    destruct (req x r); simpl; [lia|]. destruct (rlt x r); simpl; lia.
  Qed.

  Lemma wsum_push_all ps : forall h,
    Forall good ps -> Forall good h -> wsum (push_all ps h) <= wsum h + wsum ps.
  Proof.
    induction ps as [|a ps IH]; intros h Hps Hh; simpl; [lia|].
    inversion Hps as [|? ? Ha Hps']; subst.
    pose proof (wsum_push a h Ha Hh).
    pose proof (IH (heap_push a h) Hps' (push_all_Forall good [a] h (Forall_cons a Ha (Forall_nil _)) Hh)).
    lia.
  Qed.

  (* x and y intersect, and the pieces cover their union once *)
  Lemma split_weight x y ps calls :
    overlap_split x y ps calls -> good x -> good y -> wsum ps < w x + w y.
  Proof.
    intros Hsp Gx Gy.
    pose proof (good_wfr x Gx) as Wx. pose proof (good_wfr y Gy) as Wy.
    pose proof (split_pieces _ _ _ _ Hsp Wx Wy) as Hps.
    pose proof (w_pos x Gx). pose proof (w_pos y Gy).
    destruct x as [xb xe], y as [yb ye]. unfold wfr, rB, rE in *; simpl in *.
    destruct Hsp as [Hb He|Hb Hm He|Hb Hm He|Hb He]; unfold rB, rE in *; simpl in *.
    - subst yb. rewrite (w_split xb xe ye) by lia. lia.
    - subst ye. rewrite (w_split xb (yb - 1) xe) by lia. replace (yb - 1 + 1) with yb by lia. lia.
    - apply Forall_inv_tail, Forall_inv in Hps.
      pose proof (w_pos _ (good_piece _ _ _ Gx Gy Hps)).
      rewrite (w_split xb (yb - 1) xe), (w_split yb xe ye) by lia.
      replace (yb - 1 + 1) with yb by lia. lia.
    - rewrite (w_split xb (yb - 1) xe) by lia. replace (yb - 1 + 1) with yb by lia.
      rewrite (w_split yb ye xe) by lia. lia.
  Qed.

  Lemma step_decr h h' calls :
    Forall good h -> hstep h h' calls -> wsum h' < wsum h.
  Proof.
    intros Hg Hst. destruct Hst as [x y t _|x y t ps calls Hsp];
      inversion Hg as [|? ? Gx Hgt]; subst.
    - pose proof (w_pos x Gx). simpl. lia.
    - inversion Hgt as [|? ? Gy Gt]; subst.
      pose proof (split_weight _ _ _ _ Hsp Gx Gy).
      assert (Gps : Forall good ps).
      { eapply Forall_impl; [|exact (split_pieces _ _ _ _ Hsp (good_wfr x Gx) (good_wfr y Gy))].
        intros p. apply good_piece; assumption. }
      pose proof (wsum_push_all ps t Gps Gt). simpl. lia.
  Qed.

  Lemma fuel_enough_gen : forall fuel h log,
    sortedH h -> Forall good h -> wsum h < Z.of_nat fuel ->
    normalize_loop fuel h log <> NFuel.
  Proof.
    induction fuel as [|f IH]; intros h log Hs Hg Hlt.
    - pose proof (wsum_nonneg h Hg). lia.
    - destruct h as [|x [|y t]]; try discriminate.
      destruct (loop_sorted f x y t log Hs) as (h' & calls & Hst & ->).
      pose proof (Forall_impl wfr good_wfr Hg) as Hw.
      assert (Hg' : Forall good h') by exact (step_Forall good _ _ _ good_piece Hw Hg Hst).
      apply IH; [exact (proj1 (step_pres _ _ _ Hs Hw Hst))|exact Hg'|].
      pose proof (step_decr _ _ _ Hg Hst). lia.
  Qed.
End Measure.

(* the plain reason: the total size of the heap decreases *)
Definition rsize (r : range) : Z := rE r - rB r + 1.

Theorem normalize_terminates : forall l, Forall wfr l ->
  exists fuel, normalize_loop fuel (heap_of l) [] <> NFuel.
Proof.
  intros l Hw. exists (S (Z.to_nat (wsum rsize (heap_of l)))).
  apply (fuel_enough_gen rsize wfr).
  - auto.
  - intros r H. unfold rsize, wfr in *. lia.
  - intros b m e _ _. unfold rsize, rB, rE; simpl. lia.
  - intros x y p _ _ H. apply H.
  - apply heap_of_sorted.
  - apply heap_of_Forall; auto.
  - lia.
Qed.

Print Assumptions normalize_terminates.

Lemma remove_range_In z o s : In z (remove_range o s) <-> In z s /\ z <> o.
Proof.
  induction s as [|x s IH]; simpl.
  - tauto.
  - destruct (req o x) eqn:E.
    + apply req_eq in E. subst x. rewrite IH. intuition congruence.
    + apply req_neq in E. simpl. rewrite IH. intuition congruence.
Qed.

Lemma add_range_In z x s : In z (add_range x s) <-> z = x \/ In z s.
Proof.
  unfold add_range. destruct (existsb (req x) s) eqn:E.
  - apply existsb_exists in E as (y & Hy & Hr). apply req_eq in Hr. subst y.
    intuition congruence.
  - rewrite in_app_iff. simpl. intuition congruence.
Qed.

Lemma replay_call_In z s o a b c :
  In z (replay_call s (o, a, b, c)) <-> (In z s /\ z <> o) \/ z = a \/ z = b \/ z = c.
Proof.
  unfold replay_call. destruct (req c b) eqn:E.
  - apply req_eq in E. subst c. rewrite !add_range_In, remove_range_In. tauto.
  - rewrite !add_range_In, remove_range_In. tauto.
Qed.

Lemma replay_call_inrs s o a b c :
  callP (o, a, b, c) -> In o s -> forall v, inrs v (replay_call s (o, a, b, c)) <-> inrs v s.
Proof.
  intros (_ & _ & _ & Hden & _) Ho v. unfold inrs. split.
  - intros (r & Hr & Hv). apply replay_call_In in Hr. destruct Hr as [[Hr _]|Hr].
    + exists r; auto.
    + exists o. split; [exact Ho|]. apply Hden.
      destruct Hr as [->|[->| ->]]; auto.
  - intros (r & Hr & Hv). destruct (range_eq_dec r o) as [->|Hne].
    + apply Hden in Hv.
      destruct Hv as [Hv|[Hv|Hv]]; [exists a|exists b|exists c]; split; auto;
        apply replay_call_In; auto.
    + exists r. split; auto. apply replay_call_In. auto.
Qed.

Lemma split_replay_In x y ps calls s z :
  overlap_split x y ps calls ->
  In z (fold_left replay_call calls s) <-> (In z s /\ z <> x /\ z <> y) \/ In z ps.
Proof.
  intros [_ _|_ _ _|Hb _ _|_ _]; cbn [fold_left]; rewrite !replay_call_In, !in_cons_eq; simpl.
  - destruct (range_eq_dec z x); tauto.
  - destruct (range_eq_dec z y); tauto.
  - assert (Hay : z = (rB x, rB y - 1) -> z <> y).
    { intros -> E. apply (f_equal rB) in E. simpl in E. lia. }
    clear Hb. tauto.
  - destruct (range_eq_dec z y); tauto.
Qed.

Lemma split_replay_inrs x y ps calls s :
  overlap_split x y ps calls -> wfr x -> wfr y -> x <> y -> In x s -> In y s ->
  forall v, inrs v (fold_left replay_call calls s) <-> inrs v s.
Proof.
  intros Hsp Wx Wy Hne Hx Hy. pose proof (split_calls _ _ _ _ Hsp Wx Wy) as Hc.
  destruct Hsp; cbn [fold_left]; pose proof (Forall_inv Hc) as Hc1;
    try (apply replay_call_inrs; assumption).
  pose proof (Forall_inv (Forall_inv_tail Hc)) as Hc2.
  intros v. rewrite replay_call_inrs; [apply replay_call_inrs| |apply replay_call_In]; auto.
Qed.

(* dropped: the ranges popped for good; all of them end before the heap begins *)
Definition I1 (h0 h : list range) (log : list ncall) : Prop :=
  exists dropped,
    (forall z, In z (replay h0 log) <-> In z dropped \/ In z h) /\
    (forall p q, In p dropped -> In q dropped ->
       p = q \/ forall x, ~ (inr x p /\ inr x q)) /\
    (forall d z, In d dropped -> In z h -> rE d < rB z) /\
    (forall x, inrs x (replay h0 log) <-> inrs x h0).

Lemma I1_step h0 h log h' calls :
  sortedH h -> Forall wfr h -> I1 h0 h log -> hstep h h' calls -> I1 h0 h' (log ++ calls).
Proof.
  intros Hs Hw (dropped & HS & Hdd & Hbef & Hden) Hst.
  unfold I1, replay in *. rewrite fold_left_app.
  set (S := fold_left replay_call log h0) in *. clearbody S.
  destruct Hst as [x y t Hlt|x y t ps calls Hsp]; cbn [fold_left];
    destruct (sortedH_inv _ _ _ Hs) as (Hxy & _ & _ & Ht).
  - (* x is disjoint from the rest of the heap: it is final *)
    exists (x :: dropped). split; [|split; [|split]].
    + intros z. rewrite HS. simpl. tauto.
    + intros p q [<-|Hp] [<-|Hq]; auto; right; intros c.
      * specialize (Hbef q x Hq (or_introl eq_refl)). unfold inr. lia.
      * specialize (Hbef p x Hp (or_introl eq_refl)). unfold inr. lia.
    + intros d z [<-|Hd] Hz; [|apply Hbef; simpl; auto].
      destruct Hz as [<-|Hz]; [lia|]. apply Ht, proj2, rltP_leB in Hz. lia.
    + exact Hden.
  - pose proof (Forall_inv Hw) as Wx. pose proof (Forall_inv (Forall_inv_tail Hw)) as Wy.
    assert (Hdx : forall d, In d dropped -> rE d < rB x /\ rE d < rB y)
      by (intros d Hd; split; apply Hbef; simpl; auto).
    exists dropped. split; [|split; [exact Hdd|split]].
    + intros z. rewrite (split_replay_In x y ps calls S z Hsp), push_all_In, HS, !in_cons_eq.
      assert (Hnd : In z dropped -> z <> x /\ z <> y).
      { intros Hz. apply Hdx in Hz. unfold wfr in Wx, Wy. split; intros ->; lia. }
      assert (Hnt : In z t -> z <> x /\ z <> y).
      { intros Hz. apply Ht in Hz. split; intros ->; eapply rltP_irrefl, Hz. }
      clear - Hnd Hnt. tauto.
    + intros d z Hd Hz. apply push_all_In in Hz as [Hz|Hz]; [|apply Hbef; simpl; auto].
      pose proof (split_pieces _ _ _ _ Hsp Wx Wy) as Hps. rewrite Forall_forall in Hps.
      destruct (Hps z Hz) as (_ & Hb & _). apply Hdx in Hd.
      unfold rltP, wfr in *. lia.
    + intros c. rewrite <- Hden.
      apply (split_replay_inrs x y ps calls S Hsp Wx Wy (rltP_neq _ _ Hxy));
        apply HS; simpl; auto.
Qed.

Lemma I1_init h0 : I1 h0 h0 [].
Proof.
  exists []. simpl. split; [|split; [|split]].
  - intros z; tauto.
  - intros p q [].
  - intros d z [].
  - intros x; tauto.
Qed.

Theorem normalize_final_disjoint : forall l log, Forall wfr l -> normalize l = NDone log ->
  let final := replay (heap_of l) log in
  (forall p q, In p final -> In q final -> p = q \/ (forall x, ~ (inr x p /\ inr x q))) /\
  (forall x, inrs x final <-> inrs x l).
Proof.
  intros l log Hwl Hn final. subst final.
  pose proof (normalize_invariant (I1 (heap_of l)) (I1_step (heap_of l)) l Hwl
                (I1_init (heap_of l))) as H.
  rewrite Hn in H. destruct H as (hf & (dropped & HS & Hdd & Hbef & Hden) & Hdone).
  split.
  - intros p q Hp Hq. apply HS in Hp. apply HS in Hq.
    destruct Hp as [Hp|Hp], Hq as [Hq|Hq].
    + apply Hdd; auto.
    + right. intros c. specialize (Hbef p q Hp Hq). unfold inr. lia.
    + right. intros c. specialize (Hbef q p Hq Hp). unfold inr. lia.
    + left. destruct hf as [|z [|? ?]]; [destruct Hp| |simpl in Hdone; lia].
      destruct Hp as [<-|[]]. destruct Hq as [<-|[]]. reflexivity.
  - intros x. rewrite Hden. apply inrs_ext. intros z. apply heap_of_In.
Qed.

Print Assumptions normalize_final_disjoint.

(* The concrete fuel bound of the model suffices: weight a range by the
   number of input endpoints (B and E+1 of input ranges) it covers. *)

Definition pts (l : list range) : list Z := flat_map (fun r => [rB r; rE r + 1]) l.

Fixpoint cntf (P : list Z) (b e : Z) : Z :=
  match P with
  | [] => 0
  | p :: P' => (if (b <=? p) && (p <=? e) then 1 else 0) + cntf P' b e
  end.
Definition cnt (P : list Z) (r : range) : Z := cntf P (rB r) (rE r).
Definition goodP (P : list Z) (r : range) : Prop :=
  wfr r /\ In (rB r) P /\ In (rE r + 1) P.

Lemma cntf_nonneg P b e : 0 <= cntf P b e.
Proof. induction P as [|p P IH]; simpl; [lia|]. destruct ((b <=? p) && (p <=? e)); lia. Qed.

Lemma cntf_le_len P b e : cntf P b e <= Z.of_nat (length P).
Proof.
  induction P as [|p P IH]; [simpl; lia|].
  cbn [cntf length]. rewrite Nat2Z.inj_succ. destruct ((b <=? p) && (p <=? e)); lia.
Qed.

Lemma cntf_split P b m e : b <= m -> m < e -> cntf P b e = cntf P b m + cntf P (m + 1) e.
Proof.
  intros H1 H2. induction P as [|p P IH]; simpl; [lia|].
  destruct ((b <=? p) && (p <=? e)) eqn:E1; destruct ((b <=? p) && (p <=? m)) eqn:E2;
    destruct ((m + 1 <=? p) && (p <=? e)) eqn:E3; lia.
Qed.

Lemma cntf_pos P b e : In b P -> b <= e -> 1 <= cntf P b e.
Proof.
  intros Hin Hle. induction P as [|p P IH]; [destruct Hin|].
  simpl. pose proof (cntf_nonneg P b e). destruct Hin as [->|Hin].
  - destruct ((b <=? b) && (b <=? e)) eqn:E; lia.
  - specialize (IH Hin). destruct ((b <=? p) && (p <=? e)); lia.
Qed.

Lemma pts_length l : length (pts l) = (2 * length l)%nat.
Proof. unfold pts. induction l as [|r l IH]; simpl in *; lia. Qed.

Lemma wsum_cnt_bound P h : wsum (cnt P) h <= Z.of_nat (length h) * Z.of_nat (length P).
Proof.
  induction h as [|r t IH]; [simpl; lia|].
  cbn [wsum length]. rewrite Nat2Z.inj_succ.
  pose proof (cntf_le_len P (rB r) (rE r)) as Hc. unfold cnt at 1.
  rewrite Z.mul_succ_l. lia.
Qed.

Theorem normalize_fuel_enough : forall l, Forall wfr l -> normalize l <> NFuel.
Proof.
  intros l Hw. unfold normalize.
  apply (fuel_enough_gen (cnt (pts l)) (goodP (pts l))).
  - intros r (H & _). exact H.
  - intros r (H & Hb & _). apply cntf_pos; auto.
  - intros b m e H1 H2. unfold cnt, rB, rE; simpl. apply cntf_split; auto.
  - intros x y p (Wx & Bx & Ex) (Wy & By & Ey) (Wp & Hb & He).
    split; [exact Wp|]. split.
    + destruct Hb as [->|[->|[->| ->]]]; assumption.
    + destruct He as [->|[->| ->]]; try assumption.
      replace (rB y - 1 + 1) with (rB y) by lia. assumption.
  - apply heap_of_sorted.
  - apply heap_of_Forall. rewrite Forall_forall in *. intros r Hr.
    split; [auto|]. unfold pts. split; apply in_flat_map; exists r; simpl; auto.
  - pose proof (wsum_cnt_bound (pts l) (heap_of l)) as Hb.
    rewrite pts_length in Hb. pose proof (heap_of_length l) as Hl.
    (* the weight is at most |l| * 2|l|; the fuel 4(2|l|+2)^2+16 is over 16|l|^2 *)
    unfold normalize_fuel. nia.
Qed.

Print Assumptions normalize_fuel_enough.
