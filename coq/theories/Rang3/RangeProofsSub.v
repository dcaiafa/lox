(* rang3.Subtract: the loop is three moves, each keeping Inv and the
   denotation and lowering msr. *)
From Coq Require Import List ZArith Lia Sorting.Sorted.
From Lox Require Import Rang3.RangeModel Rang3.RangeProofs.
Import ListNotations.
Open Scope Z_scope.

Definition sub (p q : range) : Prop := rB q <= rB p /\ rE p <= rE q.
Definition all_before (l1 l2 : list range) : Prop :=
  forall x y, In x l1 -> In y l2 -> before x y.
(* what Subtract keeps and returns; weaker than canon: neighbours may touch *)
Definition dsorted (l : list range) : Prop := StronglySorted before l /\ Forall wfr l.

Lemma canon_dsorted l : canon l -> dsorted l.
Proof. split; [apply canon_before|apply canon_wf]; assumption. Qed.

Lemma dsorted_app_iff l1 l2 :
  dsorted (l1 ++ l2) <-> dsorted l1 /\ dsorted l2 /\ all_before l1 l2.
Proof.
  unfold dsorted. rewrite Forall_app. split.
  - intros [Hs [W1 W2]]. apply SS_app_inv in Hs as (S1 & S2 & S12). auto.
  - intros ([S1 W1] & [S2 W2] & S12). auto using SS_app.
Qed.

Lemma dsorted_cons_iff x l :
  dsorted (x :: l) <-> wfr x /\ dsorted l /\ all_before [x] l.
Proof.
  change (x :: l) with ([x] ++ l). rewrite dsorted_app_iff. split.
  - intros ([_ W] & Hl & Hx). inversion W; subst. auto.
  - intros (W & Hl & Hx). split; [|split; assumption]. split; repeat constructor; exact W.
Qed.

Lemma before_all t x l : dsorted (x :: l) -> before t x -> all_before [t] (x :: l).
Proof.
  intros H Ht t' y [<-|[]] [<-|Hy]; [exact Ht|].
  apply dsorted_cons_iff in H as (Hw & _ & Hx). specialize (Hx x y (or_introl eq_refl) Hy).
  unfold before, wfr in *. lia.
Qed.

Lemma dsorted_refine l1 q ps l2 :
  dsorted (l1 ++ q :: l2) -> dsorted ps -> Forall (fun p => sub p q) ps ->
  dsorted (l1 ++ ps ++ l2).
Proof.
  intros H Hps Hsub. rewrite Forall_forall in Hsub.
  apply dsorted_app_iff in H as (H1 & Hq & H1q).
  apply dsorted_cons_iff in Hq as (_ & H2 & Hq2).
  apply dsorted_app_iff. split; [exact H1|]. split.
  - apply dsorted_app_iff. split; [exact Hps|]. split; [exact H2|].
    intros x y Hx Hy. specialize (Hsub x Hx). specialize (Hq2 q y (or_introl eq_refl) Hy).
    unfold sub, before in *. lia.
  - intros x y Hx Hy. apply in_app_or in Hy as [Hy|Hy].
    + specialize (Hsub y Hy). specialize (H1q x q Hx (or_introl eq_refl)).
      unfold sub, before in *. lia.
    + apply H1q; simpl; auto.
Qed.

(* the let-bound refill of subtract_loop *)
Definition refill (f : nat) (r a b : list range) : option (list range) :=
  match a with
  | [] => Some (rev r ++ a)
  | x :: a' => subtract_loop f (x :: r) a' b
  end.

(* Termination weight: how many iterations the top of the stack can still
   spend against the head of b before an element of a or b is consumed.
   (The upper piece pushed when eb lies strictly inside ea starts at
   eb.B + 1, so it may still overlap eb and be cut once more.) *)
Definition wgt (r b : list range) : nat :=
  match r, b with
  | ea :: _, eb :: _ =>
    if rE ea <? rB eb then 0%nat
    else if rB ea >? rE eb then 1%nat
    else if rB ea <? rB eb then 3%nat
    else 2%nat
  | _, _ => 0%nat
  end.

(* subtract_fuel is 4|a| + 4|b| + 8: above msr at the start, wgt being at most 3 *)
Definition msr (r a b : list range) : nat := (4 * length a + 4 * length b + wgt r b)%nat.

Lemma wgt_cases ea r eb b :
  let w := wgt (ea :: r) (eb :: b) in
  (rE ea < rB eb /\ w = 0%nat) \/
  (rB eb <= rE ea /\ rE eb < rB ea /\ w = 1%nat) \/
  (rB eb <= rE ea /\ rB ea <= rE eb /\ rB eb <= rB ea /\ w = 2%nat) \/
  (rB eb <= rE ea /\ rB ea <= rE eb /\ rB ea < rB eb /\ w = 3%nat).
Proof.
  unfold wgt.
  destruct (rE ea <? rB eb) eqn:C1; [left; split; [lia|reflexivity]|right].
  destruct (rB ea >? rE eb) eqn:C2; [left; repeat split; lia|right].
  destruct (rB ea <? rB eb) eqn:C3; [right|left]; repeat split; lia.
Qed.

Lemma wgt_le3 r b : (wgt r b <= 3)%nat.
Proof.
  destruct r as [|ea r]; [simpl; lia|]. destruct b as [|eb b]; [simpl; lia|].
  destruct (wgt_cases ea r eb b) as [H|[H|[H|H]]]; lia.
Qed.

(* The four branches of the Go switch in which ea and eb meet, as one: what
   is pushed back in place of ea, top first. *)
Definition cut (ea eb : range) : list range :=
  (if rE ea >? rE eb
   then [((if rB ea <? rB eb then rB eb else rE eb) + 1, rE ea)] else []) ++
  (if rB ea <? rB eb then [(rB ea, rB eb - 1)] else []).

Lemma loop_cases f ea r' a eb b' :
  let now := subtract_loop (S f) (ea :: r') a (eb :: b') in
  (rE ea < rB eb /\ now = refill f (ea :: r') a (eb :: b')) \/
  (rE eb < rB ea /\ now = subtract_loop f (ea :: r') a b') \/
  (rB eb <= rE ea /\ rB ea <= rE eb /\ now = subtract_loop f (cut ea eb ++ r') a (eb :: b')).
Proof.
  cbv zeta. cbn [subtract_loop]. unfold cut.
  destruct (rE ea <? rB eb) eqn:C1; [left; split; [lia|reflexivity]|right].
  destruct (rB ea >? rE eb) eqn:C2; [left; split; [lia|reflexivity]|right].
  split; [lia|]. split; [lia|].
  destruct (rB ea <? rB eb) eqn:L, (rB ea >=? rB eb) eqn:G; try lia;
    destruct (rE ea >? rE eb) eqn:U, (rE ea <=? rE eb) eqn:H; try lia; reflexivity.
Qed.

Lemma cut_spec ea eb : wfr eb -> rB eb <= rE ea -> rB ea <= rE eb ->
  dsorted (rev (cut ea eb)) /\ Forall (fun p => sub p ea) (cut ea eb) /\
  (forall c, inrs c (cut ea eb) /\ ~ inr c eb <-> inr c ea /\ ~ inr c eb).
Proof.
  unfold cut, wfr. intros W M1 M2.
  destruct (rB ea <? rB eb) eqn:L, (rE ea >? rE eb) eqn:U; cbn [app rev].
  all: split; [split; repeat constructor; unfold before, wfr; simpl; lia|].
  all: split; [repeat constructor; simpl; lia|].
  all: intros c; rewrite ?inrs_cons, (inrs_nil_iff c); unfold inr; simpl; lia.
Qed.

Lemma cut_nt ea r' eb b' :
  dsorted (eb :: b') -> all_before r' (eb :: b') ->
  all_before (tl (cut ea eb ++ r')) (eb :: b').
Proof.
  intros Hb Hnt. unfold cut.
  destruct (rB ea <? rB eb) eqn:L, (rE ea >? rE eb) eqn:U; cbn [app tl]; try exact Hnt.
  - intros x y [<-|Hx] Hy; [|apply Hnt; assumption].
    refine (before_all _ eb b' Hb _ _ y (or_introl eq_refl) Hy). unfold before; simpl; lia.
  - intros x y Hx. apply Hnt. destruct r'; [destruct Hx|right; exact Hx].
Qed.

Lemma cut_wgt ea r' eb b' :
  rB eb <= rE ea -> rB ea <= rE eb -> all_before r' (eb :: b') ->
  (wgt (cut ea eb ++ r') (eb :: b') < wgt (ea :: r') (eb :: b'))%nat.
Proof.
  intros M1 M2 Hnt. unfold cut.
  assert (W0 : wgt r' (eb :: b') = 0%nat).
  { destruct r' as [|p r]; [reflexivity|].
    specialize (Hnt p eb (or_introl eq_refl) (or_introl eq_refl)). unfold before in Hnt.
    destruct (wgt_cases p r eb b') as [H|[H|[H|H]]]; lia. }
  destruct (wgt_cases ea r' eb b') as [W|[W|[W|W]]]; try lia;
    destruct (rB ea <? rB eb) eqn:L; try lia;
    destruct (rE ea >? rE eb) eqn:U; cbn [app]; try lia.
  - destruct (wgt_cases (rE eb + 1, rE ea) r' eb b') as [H|[H|[H|H]]]; cbn [rB rE fst snd] in H; lia.
  - destruct (wgt_cases (rB eb + 1, rE ea) (((rB ea, rB eb - 1) : range) :: r') eb b')
      as [H|[H|[H|H]]]; cbn [rB rE fst snd] in H; lia.
  - destruct (wgt_cases (rB ea, rB eb - 1) r' eb b') as [H|[H|[H|H]]]; cbn [rB rE fst snd] in H; lia.
Qed.

(* The loop invariant.  rev r ++ a is what the loop returns if it stops now;
   everything under the top of the stack is already clear of b. *)
Record Inv (r a b : list range) : Prop := mkInv {
  inv_out : dsorted (rev r ++ a);
  inv_b : dsorted b;
  inv_nt : all_before (tl r) b
}.
Arguments inv_out {r a b}.
Arguments inv_b {r a b}.
Arguments inv_nt {r a b}.

Definition den (r a b : list range) (c : Z) : Prop := (inrs c r \/ inrs c a) /\ ~ inrs c b.

Definition spec (res r a b : list range) : Prop :=
  (forall c, inrs c res <-> den r a b c) /\ dsorted res.

Lemma Inv_stop r a b : Inv r a b -> all_before (rev r ++ a) b -> spec (rev r ++ a) r a b.
Proof.
  intros I Hb. split; [|exact (inv_out I)]. intros c.
  assert (Hd : inrs c (rev r ++ a) -> ~ inrs c b).
  { intros (x & Hx & Hcx) (y & Hy & Hcy). specialize (Hb _ _ Hx Hy).
    unfold before, inr in *. lia. }
  unfold den. rewrite inrs_app, inrs_rev in *. tauto.
Qed.

Lemma den_drop ea r' a eb b' :
  Inv (ea :: r') a (eb :: b') -> rE eb < rB ea ->
  forall c, den (ea :: r') a b' c <-> den (ea :: r') a (eb :: b') c.
Proof.
  intros I Hlt c. pose proof (inv_nt I) as Hnt.
  pose proof (inv_out I) as H. cbn [rev] in H. rewrite <- app_assoc in H.
  apply dsorted_app_iff in H as (_ & H & _). apply dsorted_cons_iff in H as (Hw & _ & Ha).
  unfold den. rewrite !inrs_cons.
  assert (Hno : inr c eb -> (inr c ea \/ inrs c r') \/ inrs c a -> False).
  { intros Heb [[Hc|(x & Hx & Hc)]|(x & Hx & Hc)].
    - unfold inr in *. lia.
    - specialize (Hnt x eb Hx (or_introl eq_refl)). unfold before, inr in *. lia.
    - specialize (Ha ea x (or_introl eq_refl) Hx). unfold before, inr, wfr in *. lia. }
  tauto.
Qed.

Inductive move : list range -> list range -> list range ->
                 list range -> list range -> list range -> Prop :=
| move_push x r a b : all_before r b -> move r (x :: a) b (x :: r) a b
| move_drop ea r a eb b : rE eb < rB ea -> move (ea :: r) a (eb :: b) (ea :: r) a b
| move_cut ea r a eb b : rB eb <= rE ea -> rB ea <= rE eb ->
    move (ea :: r) a (eb :: b) (cut ea eb ++ r) a (eb :: b).

Lemma move_ok r a b r2 a2 b2 : Inv r a b -> move r a b r2 a2 b2 ->
  Inv r2 a2 b2 /\ (forall c, den r2 a2 b2 c <-> den r a b c) /\
  (msr r2 a2 b2 < msr r a b)%nat.
Proof.
  intros I M. destruct M as [x r a b Hrb|ea r a eb b Hlt|ea r a eb b M1 M2].
  - split; [|split].
    + constructor; [|exact (inv_b I)|exact Hrb].
      cbn [rev]. rewrite <- app_assoc. exact (inv_out I).
    + intros c. unfold den. rewrite !inrs_cons. tauto.
    + unfold msr. pose proof (wgt_le3 (x :: r) b). cbn [length]. lia.
  - split; [|split].
    + constructor; [exact (inv_out I)|apply (dsorted_cons_iff eb b), (inv_b I)|].
      intros x y Hx Hy. apply (inv_nt I); simpl; auto.
    + apply den_drop; assumption.
    + unfold msr. pose proof (wgt_le3 (ea :: r) b). cbn [length]. lia.
  - pose proof (inv_nt I) as Hnt. cbn [tl] in Hnt.
    assert (Hweb : wfr eb) by (apply (dsorted_cons_iff eb b), (inv_b I)).
    destruct (cut_spec ea eb Hweb M1 M2) as (Hps & Hsub & Hden).
    split; [|split].
    + constructor; [|exact (inv_b I)|apply cut_nt; [exact (inv_b I)|exact Hnt]].
      pose proof (inv_out I) as H. cbn [rev] in H. rewrite <- app_assoc in H.
      rewrite rev_app_distr, <- app_assoc. apply (dsorted_refine _ ea); auto.
      apply Forall_rev; exact Hsub.
    + intros c. specialize (Hden c). unfold den. rewrite inrs_app, !inrs_cons. tauto.
    + unfold msr. pose proof (cut_wgt ea r eb b M1 M2 Hnt). lia.
Qed.

Lemma loop_move f r a b : Inv r a b ->
  (subtract_loop (S f) r a b = Some (rev r ++ a) /\ all_before (rev r ++ a) b) \/
  (exists r2 a2 b2, move r a b r2 a2 b2 /\
     subtract_loop (S f) r a b = subtract_loop f r2 a2 b2).
Proof.
  intros I. destruct b as [|eb b']; [left; split; [reflexivity|intros x y _ []]|].
  assert (Hrefill : all_before r (eb :: b') ->
    (refill f r a (eb :: b') = Some (rev r ++ a) /\ all_before (rev r ++ a) (eb :: b')) \/
    (exists r2 a2 b2, move r a (eb :: b') r2 a2 b2 /\
       refill f r a (eb :: b') = subtract_loop f r2 a2 b2)).
  { intros Hrb. destruct a as [|x a']; [left|right].
    - split; [reflexivity|]. rewrite app_nil_r. intros x y Hx. apply in_rev in Hx.
      apply Hrb; exact Hx.
    - exists (x :: r), a', (eb :: b'). split; [apply move_push; exact Hrb|reflexivity]. }
  destruct r as [|ea r'].
  { apply Hrefill. intros x y []. }
  destruct (loop_cases f ea r' a eb b') as [(C1 & ->)|[(C1 & ->)|(C1 & C2 & ->)]].
  - apply Hrefill. intros x y [<-|Hx] Hy; [|apply (inv_nt I); assumption].
    apply (before_all ea eb b' (inv_b I) C1 ea y); simpl; auto.
  - right. exists (ea :: r'), a, b'. split; [apply move_drop; exact C1|reflexivity].
  - right. exists (cut ea eb ++ r'), a, (eb :: b').
    split; [apply move_cut; assumption|reflexivity].
Qed.

Lemma subtract_loop_inv : forall fuel r a b,
  Inv r a b -> (msr r a b < fuel)%nat ->
  exists res, subtract_loop fuel r a b = Some res /\ spec res r a b.
Proof.
  induction fuel as [|f IH]; intros r a b I Hm; [lia|].
  destruct (loop_move f r a b I) as [[-> Hb]|(r2 & a2 & b2 & M & ->)].
  - eexists. split; [reflexivity|]. apply Inv_stop; assumption.
  - destruct (move_ok _ _ _ _ _ _ I M) as (I2 & Hden & Hlt).
    destruct (IH r2 a2 b2 I2) as (res & Hres & Hsp & Hds); [lia|].
    exists res. split; [exact Hres|]. split; [|exact Hds].
    intros c. rewrite Hsp. apply Hden.
Qed.

Lemma subtract_loop_sorted_inputs a0 b0 : dsorted a0 -> dsorted b0 ->
  exists r, subtract_loop (subtract_fuel a0 b0) [] a0 b0 = Some r /\
    (forall c, inrs c r <-> inrs c a0 /\ ~ inrs c b0) /\ dsorted r.
Proof.
  intros Ha Hb.
  assert (I : Inv [] a0 b0) by (constructor; [exact Ha|exact Hb|intros x y []]).
  destruct (subtract_loop_inv (subtract_fuel a0 b0) [] a0 b0 I) as (res & Hres & H1 & H2).
  - unfold msr, subtract_fuel. cbn [wgt]. lia.
  - exists res. split; [exact Hres|]. split; [|exact H2].
    intros c. rewrite H1. unfold den. rewrite (inrs_nil_iff c). tauto.
Qed.

Theorem subtract_loop_spec : forall a0 b0, canon a0 -> canon b0 ->
  exists r, subtract_loop (subtract_fuel a0 b0) [] a0 b0 = Some r /\
    (forall c, inrs c r <-> inrs c a0 /\ ~ inrs c b0) /\
    StronglySorted (fun x y => rE x < rB y) r /\ Forall wfr r.
Proof.
  intros a0 b0 Ha Hb. apply subtract_loop_sorted_inputs; apply canon_dsorted; assumption.
Qed.

(* canon a is needed only for the early return of a itself, unflattened, when
   b is empty; what the loop returns is sorted for any well-formed a *)
Lemma subtract_full : forall a b, Forall wfr a -> Forall wfr b ->
  exists r, subtract a b = Some r /\
    (forall c, inrs c r <-> inrs c a /\ ~ inrs c b) /\
    Forall wfr r /\
    (canon a -> StronglySorted (fun x y => rE x < rB y) r).
Proof.
  intros a b Hwa Hwb.
  destruct a as [|x a]; [|destruct b as [|y b]].
  - exists []. split; [destruct b; reflexivity|]. split; [|split].
    + intros c. rewrite (inrs_nil_iff c). tauto.
    + constructor.
    + intros _. constructor.
  - exists (x :: a). split; [reflexivity|]. split; [|split]; auto.
    + intros c. rewrite (inrs_nil_iff c). tauto.
    + apply canon_before.
  - unfold subtract.
    destruct (subtract_loop_spec (flatten (x :: a)) (flatten (y :: b)))
      as (r & Hr & H1 & H2 & H3); auto using flatten_canon.
    exists r. split; [exact Hr|]. split; [|split]; auto.
    intros c. rewrite H1, !flatten_denotes; auto. tauto.
Qed.

Theorem subtract_denotes : forall a b, Forall wfr a -> Forall wfr b ->
  exists r, subtract a b = Some r /\ (forall c, inrs c r <-> inrs c a /\ ~ inrs c b).
Proof.
  intros a b Ha Hb. destruct (subtract_full a b Ha Hb) as (r & H1 & H2 & _).
  exists r; auto.
Qed.

Theorem subtract_sorted : forall a b r, canon a -> Forall wfr b -> subtract a b = Some r ->
  StronglySorted (fun x y => rE x < rB y) r /\ Forall wfr r.
Proof.
  intros a b r Ha Hb Hr.
  destruct (subtract_full a b (canon_wf _ Ha) Hb) as (r' & H1 & H2 & H3 & H4).
  rewrite H1 in Hr. inversion Hr; subst. split; auto.
Qed.

Print Assumptions subtract_loop_spec.
Print Assumptions subtract_denotes.
Print Assumptions subtract_sorted.
