(* Mirror of internal/ast/char_class.go, char_class_expr.go, the '.' term and
   the class-item pairing / escape decoding of internal/parser/parser.go. *)
From Coq Require Import List ZArith Bool.
From Lox Require Import Rang3.RangeModel.
Import ListNotations.
Open Scope Z_scope.

Inductive class_expr :=
| CClass (neg : bool) (items : list range)        (* [..] and ~[..] *)
| CSub (l r : class_expr)                         (* [..]-[..] *)
| CAdd (l r : class_expr).                        (* present in the AST only *)

Definition any_class : class_expr := CClass false [(0, max_rune)].

(* GetRanges; None when Subtract runs out of fuel (proved impossible). *)
Fixpoint get_ranges (e : class_expr) : option (list range) :=
  match e with
  | CClass neg items =>
    let rs := flatten items in
    if neg then subtract [(0, max_rune)] rs else Some rs
  | CSub l r =>
    match get_ranges l, get_ranges r with
    | Some a, Some b => subtract a b
    | _, _ => None
    end
  | CAdd l r =>
    match get_ranges l, get_ranges r with
    | Some a, Some b => Some (flatten (a ++ b))
    | _, _ => None
    end
  end.

(* The loop of on_char_class (internal/parser/parser.go): tokens are CLASS_CHAR
   (false, rune) or CLASS_DASH (true, '-').  Each round takes one token or
   three, so the fuel class_items gives is enough. *)
Definition ctok := (bool * Z)%type.

Fixpoint pair_items (fuel : nat) (chars : list ctok) : list range :=
  match fuel with
  | O => []
  | S f =>
    match chars with
    | [] => []
    | c0 :: rest =>
      match rest with
      | (true, _) :: c2 :: rest' => (snd c0, snd c2) :: pair_items f rest'
      | _ => (snd c0, snd c0) :: pair_items f rest
      end
    end
  end.
Definition class_items (chars : list ctok) : list range := pair_items (S (length chars)) chars.

(* unescape on bytes (Z in 0..255).  Panic = index out of range (a \x, \u or
   \U with too few bytes after it), a ParseUint error (a non-hex digit) or the
   "unreachable" default, which the Go code turns into a crash.  A backslash
   that is the last byte stands for itself (repair a38a9a0). *)
Inductive uresult := UOk (runes_or_bytes : list (bool * Z)) | UPanic.
(* (true, r): WriteRune r ; (false, b): WriteByte b *)

Definition hex_val (b : Z) : option Z :=
  if (48 <=? b) && (b <=? 57) then Some (b - 48)
  else if (97 <=? b) && (b <=? 102) then Some (b - 87)
  else if (65 <=? b) && (b <=? 70) then Some (b - 55)
  else None.

Fixpoint hex_to_rune (n : nat) (l : list Z) (acc : Z) : option (Z * list Z) :=
  match n with
  | O => Some (acc, l)
  | S n' =>
    match l with
    | [] => None
    | b :: l' =>
      match hex_val b with
      | Some v => hex_to_rune n' l' (acc * 16 + v)
      | None => None
      end
    end
  end.

Fixpoint unescape_loop (fuel : nat) (lit : list Z) (acc : list (bool * Z)) : uresult :=
  match fuel with
  | O => UPanic
  | S f =>
    match lit with
    | [] => UOk (rev acc)
    | 92 :: rest =>
      match rest with
      | [] => UOk (rev ((false, 92) :: acc))
      | 110 :: r => unescape_loop f r ((true, 10) :: acc)
      | 114 :: r => unescape_loop f r ((true, 13) :: acc)
      | 116 :: r => unescape_loop f r ((true, 9) :: acc)
      | 39 :: r => unescape_loop f r ((true, 39) :: acc)
      | 92 :: r => unescape_loop f r ((true, 92) :: acc)
      | 45 :: r => unescape_loop f r ((true, 45) :: acc)
      | 120 :: r =>
        match hex_to_rune 2 r 0 with
        | Some (v, r') => unescape_loop f r' ((false, v) :: acc)
        | None => UPanic
        end
      | 117 :: r =>
        match hex_to_rune 4 r 0 with
        | Some (v, r') => unescape_loop f r' ((true, v) :: acc)
        | None => UPanic
        end
      | 85 :: r =>
        match hex_to_rune 8 r 0 with
        | Some (v, r') => unescape_loop f r' ((true, v) :: acc)
        | None => UPanic
        end
      | _ => UPanic
      end
    | b :: rest => unescape_loop f rest ((false, b) :: acc)
    end
  end.
Definition unescape (lit : list Z) : uresult := unescape_loop (S (length lit)) lit [].
