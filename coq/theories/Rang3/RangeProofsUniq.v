(* A set has one canonical list, so Flatten does not depend on what its
   second sort (by B only) does to the slice. *)
From Coq Require Import List ZArith Lia Sorting.Sorted Sorting.Permutation.
From Lox Require Import Rang3.RangeModel Rang3.RangeProofs.
Import ListNotations.
Open Scope Z_scope.

Lemma canon_cons_inv r t : canon (r :: t) ->
  wfr r /\ (forall y, In y t -> rE r + 1 < rB y).
Proof.
  intros H. apply canon_wf_gap in H as [Hw Hs].
  inversion Hw; subst. inversion Hs as [|? ? _ Hall]; subst.
  rewrite Forall_forall in Hall. auto.
Qed.

Lemma canon_min r t c : canon (r :: t) -> inrs c (r :: t) -> rB r <= c.
Proof.
  intros H Hc. destruct (canon_cons_inv _ _ H) as (Hwr & Hg).
  apply inrs_cons in Hc as [Hc|(y & Hy & Hc)].
  - unfold inr in Hc; lia.
  - specialize (Hg y Hy). unfold inr, wfr in *. lia.
Qed.

Lemma canon_gap_notin r t : canon (r :: t) -> ~ inrs (rE r + 1) (r :: t).
Proof.
  intros H Hc. destruct (canon_cons_inv _ _ H) as (Hwr & Hg).
  apply inrs_cons in Hc as [Hc|(y & Hy & Hc)].
  - unfold inr in Hc; lia.
  - specialize (Hg y Hy). unfold inr in *. lia.
Qed.

Lemma canon_tail_after r t c : canon (r :: t) -> inrs c t -> rE r < c.
Proof.
  intros H (y & Hy & Hc). destruct (canon_cons_inv _ _ H) as (_ & Hg).
  specialize (Hg y Hy). unfold inr in *. lia.
Qed.

Lemma canon_head_in r t : canon (r :: t) -> inrs (rB r) (r :: t).
Proof.
  intros H. apply canon_cons_inv in H as (Hw & _). apply inrs_cons. left.
  unfold inr, wfr in *; lia.
Qed.

Lemma canon_head_eq r1 t1 r2 t2 :
  canon (r1 :: t1) -> canon (r2 :: t2) ->
  (forall c, inrs c (r1 :: t1) <-> inrs c (r2 :: t2)) -> rB r2 <= rB r1 /\ rE r2 <= rE r1.
Proof.
  intros H1 H2 Heq.
  destruct (canon_cons_inv _ _ H1) as (Hw1 & _).
  assert (HB : rB r2 <= rB r1).
  { apply (canon_min r2 t2 (rB r1) H2), Heq, canon_head_in, H1. }
  split; [exact HB|].
  destruct (Z_le_gt_dec (rE r2) (rE r1)) as [Hle|Hgt]; [exact Hle|exfalso].
  apply (canon_gap_notin r1 t1 H1). apply Heq. apply inrs_cons. left.
  unfold inr, wfr in *; lia.
Qed.

Lemma canon_tail_sub r t1 t2 c :
  canon (r :: t1) -> (inrs c (r :: t1) -> inrs c (r :: t2)) -> inrs c t1 -> inrs c t2.
Proof.
  intros H1 Hsub Hc. pose proof (canon_tail_after _ _ _ H1 Hc) as Hgt.
  destruct (proj1 (inrs_cons c r t2) (Hsub (proj2 (inrs_cons c r t1) (or_intror Hc))))
    as [Hin|Hin]; [unfold inr in Hin; lia|exact Hin].
Qed.

Theorem canon_unique : forall l1 l2, canon l1 -> canon l2 ->
  (forall c, inrs c l1 <-> inrs c l2) -> l1 = l2.
Proof.
  induction l1 as [|r1 t1 IH]; intros l2 H1 H2 Heq; destruct l2 as [|r2 t2].
  - reflexivity.
  - exfalso. apply (inrs_nil_iff (rB r2)), Heq, canon_head_in, H2.
  - exfalso. apply (inrs_nil_iff (rB r1)), Heq, canon_head_in, H1.
  - destruct (canon_head_eq _ _ _ _ H1 H2 Heq) as [A1 A2].
    destruct (canon_head_eq _ _ _ _ H2 H1 (fun c => iff_sym (Heq c))) as [B1 B2].
    assert (Hr : r1 = r2).
    { destruct r1, r2; unfold rB, rE in *; simpl in *; f_equal; lia. }
    subst r2. f_equal. apply IH; try (eapply canon_tail; eassumption).
    intros c. split; eapply canon_tail_sub; try eassumption; apply Heq.
Qed.

Theorem flatten_any_order : forall l l', Forall wfr l -> Permutation l l' ->
  StronglySorted (fun a b => rB a <= rB b) l' ->
  (forall c, inrs c (fst (merge_pass [] [] l')) <-> inrs c l) /\
  fst (merge_pass [] [] l') = flatten l.
Proof.
  intros l l' Hw Hp Hs.
  assert (Hw' : Forall wfr l') by (eapply Permutation_Forall; eauto).
  assert (Hd : forall c, inrs c (fst (merge_pass [] [] l')) <-> inrs c l).
  { intros c. rewrite merge_pass_denotes; auto. symmetry. apply inrs_perm; auto. }
  split; [exact Hd|].
  apply canon_unique.
  - apply merge_pass_canon; auto.
  - apply flatten_canon; auto.
  - intros c. rewrite Hd, flatten_denotes; auto. tauto.
Qed.

Print Assumptions canon_unique.
Print Assumptions flatten_any_order.
